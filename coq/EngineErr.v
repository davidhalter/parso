From Coq Require Import List NArith ZArith Bool.
Import ListNotations.
Require Import Tok Engine EngineStep EngineSim LL1Engine.
Open Scope N_scope.

(* C07, second half: error nodes and error leaves are built exactly when the strict parser would raise.
     strict_no_error     : a tree returned by the strict parser contains no error node / error leaf;
     syntax_error_marked : if the strict parser raises its syntax error, every tree the recovering parser returns
                           for the same tokens contains an error node or an error leaf
   (error markers are never lost: pop / convert_node / stack removal keep them; convert_node('suite') drops only
   `blank` children - guard PGuard in Engine.v). *)

Definition noerrs (l : list tree) : bool := forallb no_error l.
Lemma no_error_node k cs : no_error (Node k cs) = match k with KErrorNode => false | _ => noerrs cs end.
Proof. destruct k; reflexivity. Qed.
Lemma noerrs_app a b : noerrs (a ++ b) = noerrs a && noerrs b.
Proof. apply forallb_app. Qed.
Lemma noerrs_one x : noerrs [x] = no_error x.
Proof. simpl. apply andb_true_r. Qed.
Lemma noerrs_cons x l : noerrs (x :: l) = no_error x && noerrs l.
Proof. reflexivity. Qed.

Section Err.
Variable G : gram.
Variable TR : list (N * list (label * plan)).

Lemma params_noerr l l' : params l l' -> noerrs l' = noerrs l.
Proof.
  induction 1 as [l|a a' b b' _ IHa _ IHb|pc _|r cs cs' _ IH].
  - reflexivity.
  - rewrite !noerrs_app, IHa, IHb. reflexivity.
  - rewrite noerrs_one. apply no_error_node.
  - rewrite noerrs_one, no_error_node. exact IH.
Qed.

Lemma blank_noerr l : forallb blank l = true -> noerrs l = true.
Proof.
  intros H. apply forallb_forall. intros x I. rewrite forallb_forall in H. specialize (H x I).
  apply andb_true_iff in H. tauto.
Qed.

Lemma converted_noerr r ns t : converted G r ns t -> no_error t = noerrs ns.
Proof.
  intros [|c0 c1 mid last -> B1 B2|ns' [a pcs pcs' b P]|kw rest rest' _ -> P]; rewrite no_error_node.
  - reflexivity.
  - apply andb_true_iff in B1 as [_ B1]. rewrite !noerrs_cons, noerrs_app, B1, (blank_noerr _ B2), andb_true_r. reflexivity.
  - rewrite !noerrs_app, !noerrs_cons, !no_error_node, (params_noerr _ _ P). reflexivity.
  - rewrite !noerrs_cons, (params_noerr _ _ P). reflexivity.
Qed.

Definition frame_ok (fr : frame) : bool := noerrs (f_nodes fr).
Definition stack_ok (s : list frame) : bool := forallb frame_ok s.

Lemma stack_ok_put fr x s : stack_ok (put fr x :: s) = stack_ok (fr :: s) && no_error x.
Proof.
  cbn [stack_ok forallb]. unfold frame_ok, put. cbn [f_nodes]. rewrite noerrs_app, noerrs_one.
  rewrite <- !andb_assoc. f_equal. apply andb_comm.
Qed.
Lemma stack_ok_push ch : forall base, stack_ok (pushes ch base) = stack_ok base.
Proof. apply pushes_keeps. reflexivity. Qed.

Lemma pop_ok s s' : pop G s = POk s' -> stack_ok s' = stack_ok s.
Proof.
  intros H. destruct (pop_inv _ _ _ H) as (tos & below & rest & nd & -> & C & ->).
  assert (E: no_error nd = frame_ok tos).
  { unfold frame_ok. apply frame_node_spec in C as [->|C]; [symmetry; apply noerrs_one|apply (converted_noerr _ _ _ C)]. }
  rewrite stack_ok_put, E. cbn [stack_ok forallb]. rewrite andb_comm. reflexivity.
Qed.

Lemma fix_suite_ok s : stack_ok (fix_suite G s) = stack_ok s.
Proof. destruct (fix_suite_fixed G s); reflexivity. Qed.

Lemma convert_leaf_ok t : no_error (convert_leaf G t) = true.
Proof. unfold convert_leaf. destruct (ty t); try reflexivity. destruct (assoc (ts t) (g_reserved G)); reflexivity. Qed.

Lemma added_ok t m f p p' : added G TR t m f p p' -> stack_ok (stack p') = stack_ok (stack p) && negb m.
Proof.
  induction 1 as [f tos rest om ic pl _|m f tos rest om ic s' p' _ _ P _ IH|m f tos rest om ic pl p' _ _ _ _ IH
                 |m f tos rest om ic gone below r n ns s2 om2 ic2 _ _ _ _ IH|f tos rest om ic gone below r _ _ _];
    cbn [stack] in *.
  - destruct (add_top_planned (convert_leaf G t) pl tos rest) as (top & r & E & ->). rewrite stack_ok_put, convert_leaf_ok, <- E. unfold planned. rewrite stack_ok_push. reflexivity.
  - rewrite IH, (pop_ok _ _ P). reflexivity.
  - exact IH.
  - rewrite fix_suite_ok, IH, stack_ok_put. cbn [no_error negb]. rewrite !andb_false_r. reflexivity.
  - rewrite fix_suite_ok, stack_ok_put. cbn [no_error err_leaf negb]. rewrite !andb_false_r. reflexivity.
Qed.

(* steps without recovery would be a strict run *)
Lemma strict_err_recovers t m f p p' : added G TR t m f p p' ->
  forall q e, stack q = stack p -> add_token G TR f false q t = PErr e -> m = true.
Proof.
  intros R [s om ic] e E X. cbn [stack] in E. subst s. destruct m; [reflexivity|].
  assert (Y: add_token G TR f false (mkP (stack p) om ic) t = POk (mkP (stack p') om ic)).
  { apply add_token_added. exists false. split; [exact (added_sim G TR _ _ _ _ _ R eq_refl om ic)|reflexivity]. }
  rewrite X in Y. discriminate.
Qed.

Lemma feed_marked toks p p' : feed G TR true p toks = POk p' -> stack_ok (stack p) = false -> stack_ok (stack p') = false.
Proof.
  apply (feed_inv G TR true (fun _ s => stack_ok s = false)).
  - intros u rest m f q q' _ R S. rewrite (added_ok _ _ _ _ _ R), S. reflexivity.
  - intros u rest s _ S. exact S.
Qed.

Lemma feed_err : forall toks p x, feed G TR false p toks = PErr (SyntaxErr x) ->
  forall ic p', feed G TR true (mkP (stack p) [] ic) toks = POk p' -> stack_ok (stack p') = false.
Proof.
  induction toks as [|t toks IH]; intros [s om ic0] x H ic p' R; [discriminate|]. cbn [stack] in R. rewrite feed_cons in H, R.
  cbn [retok] in H. destruct (retok_no_omit ic t) as (ic1 & K). rewrite K in R.
  destruct (add_token G TR _ false _ t) as [p2|e] eqn:A.
  - apply add_token_sim with (om := []) (ic := ic1) in A. cbn [stack] in A. rewrite A in R. eapply IH; [exact H|exact R].
  - destruct (add_token G TR _ true _ t) as [p3|] eqn:A2; [|discriminate].
    apply add_token_added in A2 as (m & R1 & _). rewrite (strict_err_recovers _ _ _ _ _ R1 (mkP s om ic0) _ eq_refl A) in R1.
    apply (feed_marked _ _ _ R). rewrite (added_ok _ _ _ _ _ R1). apply andb_false_r.
Qed.

Lemma pop_conv_err s e : pop G s = PErr e -> conv_err e.
Proof. exact (ends_err _ _ _ (pop_ends G s)). Qed.
Lemma conv_not_syntax e x : conv_err e -> e <> SyntaxErr x.
Proof. intros [X|[X|X]]; subst e; discriminate. Qed.
Lemma finish_not_syntax : forall fuel s x, finish G fuel s <> PErr (SyntaxErr x).
Proof.
  induction fuel as [|f IH]; intros s x; [discriminate|]. cbn [finish].
  destruct s as [|tos rest]; [discriminate|]. destruct (negb (final G (f_dfa tos))); [discriminate|].
  destruct rest as [|below rest].
  - intros H. exact (conv_not_syntax _ x (convert_node_err _ _ _ _ H) eq_refl).
  - destruct (pop G (tos :: below :: rest)) as [s'|e] eqn:P; [apply IH|]. intros [= ->]. exact (conv_not_syntax _ x (pop_conv_err _ _ P) eq_refl).
Qed.

Theorem strict_no_error : forall start toks t, parse G TR false start toks = POk t -> no_error t = true.
Proof.
  intros start toks t H.
  destruct (parse_inv G TR false (fun _ s => stack_ok s = true)) with (4 := H) as (root & S & _ & CV).
  - intros u rest m f p p' M R S. rewrite (added_ok _ _ _ _ _ R), S, (M eq_refl). reflexivity.
  - intros u rest s _ S. exact S.
  - intros tos rest s' _ P S. rewrite (pop_ok _ _ P). exact S.
  - reflexivity.
  - rewrite (converted_noerr _ _ _ (convert_node_spec _ _ _ _ CV)). cbn [stack_ok forallb] in S. rewrite andb_true_r in S. exact S.
Qed.

Theorem syntax_error_marked : forall start toks x t,
  parse G TR false start toks = PErr (SyntaxErr x) -> parse G TR true start toks = POk t -> no_error t = false.
Proof.
  intros start toks x t H R. unfold parse in H, R. destruct (assocN start (g_start G)) as [q0|]; [|discriminate].
  destruct (feed G TR false (mkP [mkFr q0 []] [] 0%Z) toks) as [p|e] eqn:F.
  - exfalso. exact (finish_not_syntax _ _ _ H).
  - inversion H; subst e.
    destruct (feed G TR true (mkP [mkFr q0 []] [] 0%Z) toks) as [p'|] eqn:F2; [|discriminate].
    destruct (finish_inv G (fun _ s => stack_ok s = false)) with (2 := R) as (root & S & _ & CV).
    + intros tos rest s' _ P S. rewrite (pop_ok _ _ P). exact S.
    + exact (feed_err _ _ _ F _ _ F2).
    + rewrite (converted_noerr _ _ _ (convert_node_spec _ _ _ _ CV)). cbn [stack_ok forallb] in S. rewrite andb_true_r in S. exact S.
Qed.

(* both halves together: for token lists on which both parsers give a verdict *)
Theorem error_marker_iff_strict_raises : forall start toks t,
  parse G TR true start toks = POk t ->
  (forall t', parse G TR false start toks = POk t' -> t' = t /\ no_error t = true) /\
  (forall x, parse G TR false start toks = PErr (SyntaxErr x) -> no_error t = false).
Proof.
  intros start toks t R. split.
  - intros t' S. pose proof (strict_accepts_recover_same G TR _ _ _ S) as E. rewrite R in E. inversion E; subst t'.
    split; [reflexivity|eapply strict_no_error; exact S].
  - intros x S. eapply syntax_error_marked; eassumption.
Qed.
End Err.
Print Assumptions error_marker_iff_strict_raises.
