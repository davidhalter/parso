From Coq Require Import List NArith Lia.
Import ListNotations.
Require Import Tok TokSpec TokShift.
Open Scope N_scope.

(* C04, locality of the tokenizer in the text: restarting at a clean line boundary.
   If, after the lines l1, the tokenizer is in a clean state (no open bracket, no string or f-string continued from an
   earlier line, at the start of a logical line, no pending backslash / comment prefix), then the tokens of l1 ++ l2 are
   the tokens produced for l1 followed by the tokens of l2 tokenized on its own, from the next line number, with the
   indentation stack reached after l1 and is_first_token = False.  This is the tokenizer fact behind DiffParser
   re-tokenizing only the changed tail of a file (`_diff_tokenize(lines[parsed_until_line:], ..., line_offset)`) from
   the indentation stack of the nodes it kept.
   The proof re-uses the simulation of TokShift with k = 0: the relation there leaves the end-pattern, the start position
   and the prefix of a continued string unconstrained while no string is continued, which is exactly the difference between
   the state reached after l1 and a fresh initial state. *)

Lemma shT0 t : shT 0 t = t.
Proof. destruct t as [a b c d e]. unfold shT. cbn [ty ts tline tcol tpre]. rewrite N.add_0_r. reflexivity. Qed.
Lemma map_shT0 l : map (shT 0) l = l.
Proof. rewrite (map_ext _ _ shT0). apply map_id. Qed.

Section Resume.
Variable C : coll.
Variable isident : str -> bool.
Variable isspace : N -> bool.

Definition clean (s : st) : Prop :=
  paren s = 0 /\ contstr s = [] /\ fstack s = [] /\ new_line s = true /\ addp s = [].

Definition prepend (t1 : list Token) (r : result (st * list Token)) : result (st * list Token) :=
  match r with Ok (s, t) => Ok (s, t1 ++ t) | Err e => Err e end.

Lemma lines_loop_acc : forall lines s first sc acc,
  lines_loop C isident isspace s lines first sc acc = prepend acc (lines_loop C isident isspace s lines first sc []).
Proof.
  induction lines as [|l rest IH]; intros s first sc acc; cbn [Tok.lines_loop prepend].
  - rewrite app_nil_r. reflexivity.
  - destruct (line_step C isident isspace s l first sc) as [[s1 t]|]; [|reflexivity].
    rewrite (IH s1 false sc (acc ++ t)), (IH s1 false sc ([] ++ t)). cbn [app].
    destruct (lines_loop C isident isspace s1 rest false sc []) as [[s2 t2]|]; [|reflexivity].
    cbn [prepend]. rewrite app_assoc. reflexivity.
Qed.

Lemma lines_loop_app : forall r x l2 s first sc acc,
  lines_loop C isident isspace s ((x :: r) ++ l2) first sc acc =
  match lines_loop C isident isspace s (x :: r) first sc acc with
  | Ok (s1, t1) => lines_loop C isident isspace s1 l2 false sc t1
  | Err e => Err e end.
Proof.
  induction r as [|y r IH]; intros x l2 s first sc acc.
  - cbn [app Tok.lines_loop]. destruct (line_step C isident isspace s x first sc) as [[s1 t]|]; reflexivity.
  - change ((x :: y :: r) ++ l2) with (x :: ((y :: r) ++ l2)). cbn [Tok.lines_loop].
    destruct (line_step C isident isspace s x first sc) as [[s1 t]|]; [|reflexivity].
    rewrite IH. reflexivity.
Qed.

Lemma finish_prepend : forall t1 r,
  finish_lines (prepend t1 r) = match finish_lines r with Ok t => Ok (t1 ++ t) | Err e => Err e end.
Proof.
  intros t1 r. destruct r as [[s t]|]; [|reflexivity]. cbn [prepend finish_lines].
  destruct (end_guard s); [|reflexivity]. rewrite <- app_assoc. reflexivity.
Qed.

Lemma line_step_resume : forall s1 l sc,
  clean s1 ->
  R2 0 (lnum s1 + 1) (line_step C isident isspace s1 l false sc)
       (line_step C isident isspace (mkSt 0 (indents s1) [] (0, 0) None true [] [] [] (lnum s1 + 1 - 1) 0) l false sc).
Proof.
  intros [p i c cs ep nl px ap fs ln mx] l sc (P & CS & FS & NL & AP). unfold Tok.line_step.
  cbn [paren indents contstr contstr_start endprog new_line prefix addp fstack lnum max_] in *. subst.
  apply line_core_shift, RS_at; [lia|constructor|easy..].
Qed.

(* The simulation is indexed by the line the first run is at, so running it against itself tells where the line
   counter ends up. *)
Lemma lines_loop_lnum : forall lines inds ln first sc s1 t1,
  lines_loop C isident isspace (mkSt 0 inds [] (0, 0) None true [] [] [] ln 0) lines first sc [] = Ok (s1, t1) ->
  lnum s1 = ln + N.of_nat (length lines).
Proof.
  intros lines inds ln first sc s1 t1 H.
  assert (R : RS 0 ln (mkSt 0 inds [] (0, 0) None true [] [] [] ln 0) (mkSt 0 inds [] (0, 0) None true [] [] [] ln 0))
    by (apply RS_at; [symmetry; apply N.add_0_r|constructor|easy..]).
  apply (lines_loop_shift C isident isspace 0 lines _ _ _ first sc []) in R. cbn [map] in R. rewrite H in R.
  destruct R as [R _]. apply RS_lnum in R. exact R.
Qed.

Lemma tok_resume_at : forall x r l2 inds sl sc first s1 t1,
  lines_loop C isident isspace (mkSt 0 inds [] (0, 0) None true [] [] [] (sl - 1) 0) (x :: r) first sc [] = Ok (s1, t1) ->
  clean s1 ->
  tokenize_lines C isident isspace ((x :: r) ++ l2) inds sl sc first =
  match l2 with
  | [] => Ok (t1 ++ map (fun _ => mkTok DEDENT [] (lnum s1) (max_ s1) []) (tl (indents s1)) ++ [mkTok ENDMARKER [] (lnum s1) (max_ s1) []])
  | _ => match tokenize_lines C isident isspace l2 (indents s1) (lnum s1 + 1) sc false with
         | Ok rest => Ok (t1 ++ rest) | Err e => Err e end
  end.
Proof.
  intros x r l2 inds sl sc first s1 t1 H CL. rewrite tokenize_lines_finish, lines_loop_app, H.
  destruct l2 as [|l rest].
  - cbn [Tok.lines_loop finish_lines]. destruct CL as (P & CS & FS & NL & AP). unfold end_guard, flush. rewrite CS, FS, AP. reflexivity.
  - rewrite lines_loop_acc, finish_prepend, tokenize_lines_finish.
    assert (L : R2 0 (lnum s1 + 1 + N.of_nat (length rest)) (lines_loop C isident isspace s1 (l :: rest) false sc [])
                  (lines_loop C isident isspace (mkSt 0 (indents s1) [] (0, 0) None true [] [] [] (lnum s1 + 1 - 1) 0) (l :: rest) false sc [])).
    { cbn [Tok.lines_loop]. eapply R2_bind; [apply line_step_resume, CL|]. intros sa sb ta R.
      apply (lines_loop_shift C isident isspace 0 rest _ sa sb false sc ta R). }
    apply finish_shift, RR_map in L. rewrite L.
    destruct (finish_lines (lines_loop C isident isspace s1 (l :: rest) false sc [])) as [t|]; [rewrite map_shT0|]; reflexivity.
Qed.

Theorem tok_resume : forall l1 l2 inds sl sc first s1 t1,
  1 <= sl -> l1 <> [] ->
  lines_loop C isident isspace (mkSt 0 inds [] (0, 0) None true [] [] [] (sl - 1) 0) l1 first sc [] = Ok (s1, t1) ->
  clean s1 ->
  tokenize_lines C isident isspace l1 inds sl sc first =
    Ok (t1 ++ map (fun _ => mkTok DEDENT [] (lnum s1) (max_ s1) []) (tl (indents s1)) ++ [mkTok ENDMARKER [] (lnum s1) (max_ s1) []]) /\
  (l2 <> [] ->
   tokenize_lines C isident isspace (l1 ++ l2) inds sl sc first =
   match tokenize_lines C isident isspace l2 (indents s1) (sl + N.of_nat (length l1)) sc false with
   | Ok rest => Ok (t1 ++ rest) | Err e => Err e end).
Proof.
  intros l1 l2 inds sl sc first s1 t1 SL NE H CL. destruct l1 as [|x r]; [contradiction|].
  split.
  - pose proof (tok_resume_at x r [] inds sl sc first s1 t1 H CL) as T. rewrite app_nil_r in T. exact T.
  - intros NE2. rewrite (tok_resume_at x r l2 inds sl sc first s1 t1 H CL). destruct l2 as [|l rest]; [contradiction|].
    apply lines_loop_lnum in H.
    replace (lnum s1 + 1) with (sl + N.of_nat (length (x :: r))) by lia. reflexivity.
Qed.

Lemma cleanb_clean s : cleanb s = true -> clean s.
Proof.
  unfold cleanb, clean, is_nil. intros H. repeat (apply andb_prop in H; destruct H as [H ?]).
  apply N.eqb_eq in H. destruct (contstr s); [|discriminate]. destruct (fstack s); [|discriminate]. destruct (addp s); [|discriminate].
  repeat split; try reflexivity; assumption.
Qed.

Lemma resume_scan_spec : forall lines s first sc i inds1,
  nth_error (resume_scan C isident isspace s lines first sc) i = Some (Some inds1) ->
  exists s1 t1, lines_loop C isident isspace s (firstn (S i) lines) first sc [] = Ok (s1, t1) /\ clean s1 /\ indents s1 = inds1 /\
                length (firstn (S i) lines) = S i.
Proof.
  induction lines as [|l rest IH]; intros s first sc i inds1 H; [destruct i; discriminate|].
  cbn [Tok.resume_scan] in H. destruct (line_step C isident isspace s l first sc) as [[sa ta]|] eqn:LS; [|destruct i; discriminate].
  destruct i as [|i].
  - cbn [nth_error] in H. destruct (cleanb sa) eqn:CB; [|discriminate]. inversion H; subst.
    exists sa, ta. cbn [firstn Tok.lines_loop]. rewrite LS. cbn [app]. split; [reflexivity|split; [apply cleanb_clean; exact CB|split; reflexivity]].
  - cbn [nth_error] in H. destruct (IH _ _ _ _ _ H) as (s1 & t1 & LL & CL & IN & LEN).
    exists s1, (ta ++ t1). change (firstn (S (S i)) (l :: rest)) with (l :: firstn (S i) rest). cbn [Tok.lines_loop]. rewrite LS. cbn [app].
    rewrite lines_loop_acc, LL. cbn [prepend]. split; [reflexivity|split; [exact CL|split; [exact IN|cbn [length]; rewrite LEN; reflexivity]]].
Qed.

Theorem tok_resume_points : forall lines inds sl sc first i inds1,
  1 <= sl ->
  nth_error (resume_points C isident isspace lines inds sl sc first) i = Some (Some inds1) ->
  exists t1 d e,
    tokenize_lines C isident isspace (firstn (S i) lines) inds sl sc first = Ok (t1 ++ d ++ [e]) /\
    Forall (fun t => ty t = DEDENT) d /\ length d = length (tl inds1) /\ ty e = ENDMARKER /\
    (skipn (S i) lines <> [] ->
     tokenize_lines C isident isspace lines inds sl sc first =
     match tokenize_lines C isident isspace (skipn (S i) lines) inds1 (sl + N.of_nat (S i)) sc false with
     | Ok rest => Ok (t1 ++ rest) | Err x => Err x end).
Proof.
  intros lines inds sl sc first i inds1 SL H. unfold resume_points in H.
  destruct (resume_scan_spec _ _ _ _ _ _ H) as (s1 & t1 & LL & CL & IN & LEN).
  assert (NE: firstn (S i) lines <> []) by (intros X; rewrite X in LEN; discriminate).
  destruct (tok_resume (firstn (S i) lines) (skipn (S i) lines) inds sl sc first s1 t1 SL NE LL CL) as (T1 & T2).
  exists t1, (map (fun _ => mkTok DEDENT [] (lnum s1) (max_ s1) []) (tl (indents s1))), (mkTok ENDMARKER [] (lnum s1) (max_ s1) []).
  split; [exact T1|]. split; [apply Forall_forall; intros t IT; apply in_map_iff in IT; destruct IT as (z & <- & _); reflexivity|].
  split.
  - rewrite map_length. subst inds1. reflexivity.
  - split; [reflexivity|]. intros NE2. specialize (T2 NE2). rewrite firstn_skipn, LEN, IN in T2. exact T2.
Qed.

End Resume.
Print Assumptions tok_resume.
Print Assumptions tok_resume_points.
