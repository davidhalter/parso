From Coq Require Import List NArith Bool.
Import ListNotations.
Open Scope N_scope.

(* Regular expressions over labels (the terminals and nonterminals on the right-hand side of a grammar rule) and their
   derivatives (deriv_ok), on which DfaCheck.v compares a rule with the automaton parso's generator built for it. *)
Inductive rx := Empty | Eps | Sym (a:N) | Cat (r s:rx) | Alt (r s:rx) | Star (r:rx).

Inductive matches : rx -> list N -> Prop :=
| m_eps : matches Eps []
| m_sym a : matches (Sym a) [a]
| m_cat r s u v : matches r u -> matches s v -> matches (Cat r s) (u ++ v)
| m_altl r s w : matches r w -> matches (Alt r s) w
| m_altr r s w : matches s w -> matches (Alt r s) w
| m_star0 r : matches (Star r) []
| m_star1 r u v : u <> [] -> matches r u -> matches (Star r) v -> matches (Star r) (u ++ v).

Fixpoint rx_eqb (r s : rx) : bool :=
  match r, s with
  | Empty, Empty | Eps, Eps => true
  | Sym a, Sym b => a =? b
  | Cat a b, Cat c d | Alt a b, Alt c d => rx_eqb a c && rx_eqb b d
  | Star a, Star b => rx_eqb a b
  | _, _ => false
  end.

Lemma rx_eqb_eq r s : rx_eqb r s = true <-> r = s.
Proof.
  split; [|intros <-; induction r; simpl; rewrite ?IHr1, ?IHr2, ?IHr, ?N.eqb_refl; reflexivity].
  revert s; induction r; destruct s; simpl; intros H; try discriminate;
    try apply andb_true_iff in H as [H1 H2]; f_equal; auto.
  apply N.eqb_eq. exact H.
Qed.

Fixpoint nullable (r:rx) : bool :=
  match r with
  | Empty => false | Eps => true | Sym _ => false
  | Cat r s => nullable r && nullable s
  | Alt r s => nullable r || nullable s
  | Star _ => true
  end.

(* Smart constructors: enough normalisation to keep the derivative sets of grammar
   rules finite in practice; exploration runs on fuel, so only soundness is needed. *)
Definition cat (r s:rx) : rx :=
  match r, s with
  | Empty, _ => Empty | _, Empty => Empty
  | Eps, _ => s | _, Eps => r
  | _, _ => Cat r s
  end.
Definition rank (r:rx) : N :=
  match r with Empty => 0 | Eps => 1 | Sym _ => 2 | Cat _ _ => 3 | Alt _ _ => 4 | Star _ => 5 end.
Fixpoint rx_cmp (r s:rx) : comparison :=
  match r, s with
  | Sym a, Sym b => N.compare a b
  | Cat a b, Cat c d | Alt a b, Alt c d =>
      match rx_cmp a c with Eq => rx_cmp b d | x => x end
  | Star a, Star b => rx_cmp a b
  | _, _ => N.compare (rank r) (rank s)
  end.
(* insert r into a right-nested, sorted, duplicate-free alternative list *)
Fixpoint insert (r s:rx) : rx :=
  match s with
  | Alt a b =>
      if rx_eqb r a then s else
      match rx_cmp r a with Lt => Alt r s | _ => Alt a (insert r b) end
  | Empty => r
  | _ =>
      if rx_eqb r s then s else
      match rx_cmp r s with Lt => Alt r s | _ => Alt s r end
  end.
Fixpoint alt (r s:rx) : rx :=
  match r with
  | Empty => s
  | Alt a b => alt a (alt b s)
  | _ => insert r s
  end.

Fixpoint deriv (a:N) (r:rx) : rx :=
  match r with
  | Empty | Eps => Empty
  | Sym b => if a =? b then Eps else Empty
  | Cat r s => if nullable r then alt (cat (deriv a r) s) (deriv a s) else cat (deriv a r) s
  | Alt r s => alt (deriv a r) (deriv a s)
  | Star r => cat (deriv a r) (Star r)
  end.

Lemma matches_inv r w : matches r w ->
  match r with
  | Empty => False
  | Eps => w = []
  | Sym a => w = [a]
  | Cat r s => exists u v, w = u ++ v /\ matches r u /\ matches s v
  | Alt r s => matches r w \/ matches s w
  | Star r => w = [] \/ exists u v, u <> [] /\ w = u ++ v /\ matches r u /\ matches (Star r) v
  end.
Proof. destruct 1; eauto 8. Qed.

Lemma matches_Empty w : matches Empty w <-> False.
Proof. split; [apply matches_inv|contradiction]. Qed.
Lemma matches_Eps w : matches Eps w <-> w = [].
Proof. split; [apply matches_inv|intros ->; constructor]. Qed.
Lemma matches_Sym a w : matches (Sym a) w <-> w = [a].
Proof. split; [apply matches_inv|intros ->; constructor]. Qed.
Lemma matches_Cat r s w : matches (Cat r s) w <-> exists u v, w = u ++ v /\ matches r u /\ matches s v.
Proof. split; [apply matches_inv|intros (u & v & -> & Hu & Hv); constructor; assumption]. Qed.
Lemma matches_Alt r s w : matches (Alt r s) w <-> matches r w \/ matches s w.
Proof. split; [apply matches_inv|intros [H|H]; [apply m_altl|apply m_altr]; exact H]. Qed.

Lemma matches_Cat_cons r s a w : matches (Cat r s) (a :: w) <->
  (exists u v, w = u ++ v /\ matches r (a :: u) /\ matches s v) \/ (matches r [] /\ matches s (a :: w)).
Proof.
  rewrite matches_Cat. split.
  - intros ([|x u] & v & E & Hu & Hv); simpl in E; [subst v; right; split; assumption|].
    inversion E; subst. left. exists u, v. auto.
  - intros [(u & v & -> & Hu & Hv)|[H1 H2]]; [exists (a :: u), v|exists [], (a :: w)]; auto.
Qed.
Lemma matches_Star_cons r a w : matches (Star r) (a :: w) <->
  exists u v, w = u ++ v /\ matches r (a :: u) /\ matches (Star r) v.
Proof.
  split.
  - intros H. apply matches_inv in H as [H|([|x u] & v & NE & E & Hu & Hv)]; [discriminate|contradiction|].
    injection E as -> ->. eauto.
  - intros (u & v & -> & Hu & Hv). apply (m_star1 r (a :: u) v); [discriminate|exact Hu|exact Hv].
Qed.

Lemma nullable_ok r : nullable r = true <-> matches r [].
Proof.
  induction r as [| |a|r1 IH1 r2 IH2|r1 IH1 r2 IH2|r IH]; simpl.
  - rewrite matches_Empty. split; [discriminate|contradiction].
  - rewrite matches_Eps. tauto.
  - rewrite matches_Sym. split; discriminate.
  - rewrite andb_true_iff, IH1, IH2, matches_Cat. split.
    + intros [H1 H2]. exists [], []. auto.
    + intros (u & v & E & Hu & Hv). symmetry in E. apply app_eq_nil in E as [-> ->]. auto.
  - rewrite orb_true_iff, IH1, IH2, matches_Alt. reflexivity.
  - split; [constructor|reflexivity].
Qed.

Lemma cat_ok r s w : matches (cat r s) w <-> exists u v, w = u ++ v /\ matches r u /\ matches s v.
Proof.
  rewrite <- matches_Cat.
  assert (E0: forall s, matches Empty w <-> matches (Cat Empty s) w).
  { intros s0. rewrite matches_Cat, matches_Empty. split; [contradiction|].
    intros (u & v & _ & Hu & _). apply matches_Empty in Hu. exact Hu. }
  assert (E1: forall r, matches Empty w <-> matches (Cat r Empty) w).
  { intros r0. rewrite matches_Cat, matches_Empty. split; [contradiction|].
    intros (u & v & _ & _ & Hv). apply matches_Empty in Hv. exact Hv. }
  assert (P0: forall s, matches s w <-> matches (Cat Eps s) w).
  { intros s0. rewrite matches_Cat. split.
    - intros H. exists [], w. split; [reflexivity|split; [constructor|exact H]].
    - intros (u & v & -> & Hu & Hv). apply matches_Eps in Hu; subst. exact Hv. }
  assert (P1: forall r, matches r w <-> matches (Cat r Eps) w).
  { intros r0. rewrite matches_Cat. split.
    - intros H. exists w, []. rewrite app_nil_r. split; [reflexivity|split; [exact H|constructor]].
    - intros (u & v & -> & Hu & Hv). apply matches_Eps in Hv; subst. rewrite app_nil_r. exact Hu. }
  unfold cat; destruct r; destruct s; first [reflexivity|apply E0|apply E1|apply P0|apply P1].
Qed.

Lemma insert_leaf_ok r s w :
  matches (if rx_eqb r s then s else match rx_cmp r s with Lt => Alt r s | _ => Alt s r end) w <->
  matches r w \/ matches s w.
Proof.
  destruct (rx_eqb r s) eqn:E; [apply rx_eqb_eq in E; subst; tauto|].
  assert (G: matches (Alt s r) w <-> matches r w \/ matches s w) by (rewrite matches_Alt; apply or_comm).
  destruct (rx_cmp r s); [exact G|apply matches_Alt|exact G].
Qed.
Lemma insert_ok r s w : matches (insert r s) w <-> matches r w \/ matches s w.
Proof.
  revert w. induction s as [| |b|s1 IH1 s2 IH2|s1 IH1 s2 IH2|s IH]; intros w; simpl;
    try apply insert_leaf_ok.
  - rewrite matches_Empty. tauto.
  - destruct (rx_eqb r s1) eqn:E.
    { apply rx_eqb_eq in E. subst. split; [intros H; right; exact H|intros [H|H]; [apply m_altl|]; exact H]. }
    assert (G: matches (Alt s1 (insert r s2)) w <-> matches r w \/ matches (Alt s1 s2) w)
      by (rewrite !matches_Alt, IH2; tauto).
    destruct (rx_cmp r s1); [exact G|apply matches_Alt|exact G].
Qed.

Lemma alt_ok r s w : matches (alt r s) w <-> matches r w \/ matches s w.
Proof.
  revert s w. induction r as [| |b|r1 IH1 r2 IH2|r1 IH1 r2 IH2|r IH]; intros s w; simpl;
    try apply insert_ok.
  - rewrite matches_Empty. tauto.
  - rewrite IH1, IH2, matches_Alt. tauto.
Qed.

Lemma deriv_ok a r : forall w, matches (deriv a r) w <-> matches r (a :: w).
Proof.
  assert (C: forall r' r s w, (forall u, matches r' u <-> matches r (a :: u)) ->
    (matches (cat r' s) w <-> exists u v, w = u ++ v /\ matches r (a :: u) /\ matches s v)).
  { intros r' r0 s w IH. rewrite cat_ok.
    split; intros (u & v & E & Hu & Hv); exists u, v; (split; [exact E|split; [apply IH; exact Hu|exact Hv]]). }
  induction r as [| |b|r1 IH1 r2 IH2|r1 IH1 r2 IH2|r IH]; intros w; simpl.
  - rewrite !matches_Empty. reflexivity.
  - rewrite matches_Empty, matches_Eps. split; [contradiction|discriminate].
  - rewrite matches_Sym. destruct (N.eqb_spec a b) as [->|Hne].
    + rewrite matches_Eps. split; [intros ->; reflexivity|intros [= ->]; reflexivity].
    + rewrite matches_Empty. split; [contradiction|intros [= -> _]; apply Hne; reflexivity].
  - rewrite matches_Cat_cons, <- nullable_ok. destruct (nullable r1).
    + rewrite alt_ok, (C _ _ _ _ IH1), IH2. tauto.
    + rewrite (C _ _ _ _ IH1). split; [intros H; left; exact H|intros [H|[H _]]; [exact H|discriminate]].
  - rewrite alt_ok, matches_Alt, IH1, IH2. reflexivity.
  - rewrite (C _ _ _ _ IH), matches_Star_cons. reflexivity.
Qed.
