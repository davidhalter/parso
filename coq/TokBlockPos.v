From Coq Require Import List NArith Bool.
Import ListNotations.
Require Import Tok TokFacts TokSpec.
Open Scope N_scope.

(* C09 / C03: where the zero-width INDENT / DEDENT tokens are.
   Every maximal run of INDENT / DEDENT tokens (ERROR_DEDENT tokens may sit in between) is followed by a token that is
   not a block token, and all of them carry the (line, column) of that token: a block token is positioned at the
   start of the token it precedes.  brun walks the stream with the position owed by the current run. *)

Definition tpos (t : Token) : N * N := (tline t, tcol t).
Definition pos_eqb (a b : N * N) : bool := (fst a =? fst b) && (snd a =? snd b).
Lemma pos_eqb_refl a : pos_eqb a a = true.
Proof. unfold pos_eqb. rewrite !N.eqb_refl. reflexivity. Qed.
Lemma pos_eqb_eq a b : pos_eqb a b = true -> a = b.
Proof. unfold pos_eqb. destruct a, b. simpl. intros H. apply andb_true_iff in H as [H1 H2]. apply N.eqb_eq in H1, H2. subst. reflexivity. Qed.

Definition bstep (w : option (option (N * N))) (t : Token) : option (option (N * N)) :=
  match w with
  | None => None
  | Some pend =>
    match ty t with
    | INDENT | DEDENT => match pend with
                         | None => Some (Some (tpos t))
                         | Some p => if pos_eqb p (tpos t) then Some (Some p) else None end
    | ERROR_DEDENT => Some pend
    | _ => match pend with
           | None => Some None
           | Some p => if pos_eqb p (tpos t) then Some None else None end
    end
  end.
Definition brun (w : option (N * N)) (toks : list Token) : option (option (N * N)) := fold_left bstep toks (Some w).
Lemma bfold_none l : fold_left bstep l None = None.
Proof. exact (walk_none bstep (fun _ => eq_refl) l). Qed.
Lemma brun_app w a b w' : brun w a = Some w' -> brun w (a ++ b) = brun w' b.
Proof. exact (walk_app bstep w a b w'). Qed.
Lemma brun_nil w : brun w [] = Some w.
Proof. reflexivity. Qed.

Definition isblock (t : Token) : bool := match ty t with INDENT | DEDENT => true | _ => false end.
Definition transparent (t : Token) : bool := match ty t with ERROR_DEDENT => true | _ => false end.
Definition real (t : Token) : bool := negb (isblock t) && negb (transparent t).

Lemma ordinary_real t : ordinary (ty t) = true -> real t = true.
Proof. unfold real, isblock, transparent. destruct (ty t); (discriminate || reflexivity). Qed.

Lemma brun_ords l : ords l -> brun None l = Some None.
Proof.
  induction 1 as [|t l O _ IH]; [reflexivity|]. unfold brun. simpl. destruct (ty t); try discriminate; exact IH.
Qed.

Definition owes (w : option (N * N)) (p : N * N) : Prop := w = None \/ w = Some p.
Lemma bstep_at p w t : owes w p -> tpos t = p -> transparent t = false ->
  bstep (Some w) t = Some (if isblock t then Some p else None).
Proof.
  intros O P T. unfold bstep, isblock, transparent in *.
  destruct (ty t); try discriminate; (destruct O as [->| ->]; [rewrite ?P; reflexivity|rewrite P, pos_eqb_refl; reflexivity]).
Qed.
Lemma blks_brun p h l h' : blks p h l h' -> forall w, owes w p -> exists w', brun w l = Some w' /\ owes w' p.
Proof.
  induction 1 as [h|h bl h' _ IH|h bl h' _ IH|h bl h' l c _ IH]; intros w O.
  - exists w. split; [reflexivity|exact O].
  - unfold brun. cbn [fold_left]. rewrite (bstep_at p w); [apply (IH (Some p)); right; reflexivity|exact O|destruct p; reflexivity|reflexivity].
  - unfold brun. cbn [fold_left]. rewrite (bstep_at p w); [apply (IH (Some p)); right; reflexivity|exact O|destruct p; reflexivity|reflexivity].
  - exact (IH w O).
Qed.
Lemma brun_real p t w : real t = true -> tpos t = p -> owes w p -> brun w [t] = Some None.
Proof.
  intros R P O. apply andb_true_iff in R as [B T]. apply negb_true_iff in B, T.
  unfold brun. cbn [fold_left]. rewrite (bstep_at p w t O P T), B. reflexivity.
Qed.

Section BP.
Variable C : coll.
Variable isident : str -> bool.
Variable isspace : N -> bool.

(* what may be owed between rounds: the position of a string that is still open *)
Definition BI (w : option (N * N)) (s : st) : Prop := w = None \/ (w = Some (contstr_start s) /\ contstr s <> []).
Lemma BI_nocont w s : BI w s -> contstr s = [] -> w = None.
Proof. intros [H|[_ H]] C0; [exact H|contradiction]. Qed.

Lemma round_b line ln pfx start h s' toks le :
  round line ln pfx start h s' toks le -> exists w', brun None toks = Some w' /\ BI w' s'.
Proof.
  intros R. destruct R as [s' bl ps q B [NE O] _ _ _ _|s' le _ _ _|s' bl B c NE cs _ _].
  - destruct (blks_brun _ _ _ _ B None (or_introl eq_refl)) as (w & R & OW). exists None. split; [|left; reflexivity].
    destruct ps as [|[t p] ps]; [contradiction|]. apply Forall_cons_iff in O as [O1 OR]. cbn [place].
    rewrite (brun_app _ _ _ _ R). change (?x :: ?r) with ([x] ++ r).
    rewrite (brun_app _ _ _ _ (brun_real (ln, start) _ w (ordinary_real (mkTok t p ln start pfx) O1) eq_refl OW)).
    exact (brun_ords _ (place_ords _ _ OR _ _)).
  - exists None. split; [reflexivity|left; reflexivity].
  - destruct (blks_brun _ _ _ _ B None (or_introl eq_refl)) as (w & R & OW). exists w. split; [exact R|].
    destruct OW as [->| ->]; [left; reflexivity|right; split; [rewrite cs; reflexivity|rewrite c; exact NE]].
Qed.

Lemma body_b : forall s line pos s' toks le w,
  body C isident isspace s line pos = Ok (s', toks, le) -> contstr s = [] -> BI w s -> exists w', brun w toks = Some w' /\ BI w' s'.
Proof.
  intros s line pos s' toks le w H CS B. rewrite (BI_nocont _ _ B CS).
  destruct (body_round _ _ _ _ _ _ _ _ _ H CS) as (s1 & toks1 & oe & p & FS & R).
  destruct (fround_frame _ _ _ _ _ _ _ FS) as (_ & _ & _ & _ & O1). pose proof (brun_ords _ O1) as R1.
  destruct oe as [e|].
  - destruct R as (-> & -> & _). exists None. split; [exact R1|left; reflexivity].
  - destruct R as (_ & ws & start & lim & (toksB & -> & R & _) & _). rewrite (brun_app _ _ _ _ R1). exact (round_b _ _ _ _ _ _ _ _ R).
Qed.

Lemma string_b s tk w : contstr s <> [] -> BI w s ->
  exists w', brun w [mkTok STRING tk (fst (contstr_start s)) (snd (contstr_start s)) (prefix s)] = Some w' /\
    BI w' (with_contstr s []).
Proof.
  intros _ B. exists None. split; [|left; reflexivity].
  apply (brun_real (contstr_start s)); [reflexivity|destruct (contstr_start s); reflexivity|].
  destruct B as [->|[-> _]]; [left|right]; reflexivity.
Qed.
Lemma cont_b s more w : contstr s <> [] -> BI w s -> BI w (with_contstr s (contstr s ++ more)).
Proof.
  intros NE [->|[-> _]]; [left; reflexivity|right; split; [reflexivity|]]. cbn [contstr]. destruct (contstr s); [contradiction|discriminate].
Qed.

(* holds for every start column and whatever the shape of the pseudo regex: tok_block_positions below, the statement
   for column 0 and a regex of the two-group shape, is an instance *)
Theorem block_positions : forall lines inds sl sc first toks,
  tokenize_lines C isident isspace lines inds sl sc first = Ok toks -> brun None toks = Some None.
Proof.
  intros lines inds sl sc first toks H. destruct (tokenize_lines_tail _ _ _ _ _ _ _ _ _ H) as (s & out & bl & LL & -> & B3 & _).
  destruct (walk_lines_loop C isident isspace _ bstep BI (fun _ _ _ _ _ H => H) body_b string_b cont_b _ _ _ _ _ _ _ None _ LL eq_refl (or_introl eq_refl)) as (w & R & B).
  rewrite (brun_app _ _ _ _ R).
  (* the unterminated string, if any, settles what is owed *)
  assert (R1: brun w (flush s) = Some None).
  { pose proof (flush_ords s) as O. unfold flush in *. destruct (contstr s) as [|cc ct] eqn:CS.
    - rewrite (BI_nocont _ _ B CS). exact (brun_ords _ O).
    - apply Forall_app in O as [_ O2]. erewrite brun_app; [exact (brun_ords _ O2)|].
      apply (brun_real (contstr_start s)); [reflexivity|destruct (contstr_start s); reflexivity|].
      destruct B as [->|[-> _]]; [left; reflexivity|right; reflexivity]. }
  rewrite (brun_app _ _ _ _ R1).
  destruct (blks_brun _ _ _ _ B3 None (or_introl eq_refl)) as (w3 & R3 & O3).
  rewrite (brun_app _ _ _ _ R3). apply (brun_real (lnum s, max_ s)); [reflexivity|reflexivity|exact O3].
Qed.
End BP.

Section BP0.
Variable C : coll.
Variable isident : str -> bool.
Variable isspace : N -> bool.
Hypothesis shape : shape12 (pseudo C) = true.

Theorem tok_block_positions : forall lines inds sl first toks,
  tokenize_lines C isident isspace lines inds sl 0 first = Ok toks -> brun None toks = Some None.
Proof using shape. intros lines inds sl first toks. apply block_positions. Qed.
End BP0.
Print Assumptions tok_block_positions.

Lemma brun_owed : forall l p, brun (Some p) l = Some None ->
  exists bs u rest, l = bs ++ u :: rest /\ forallb (fun x => isblock x || transparent x) bs = true /\ real u = true /\ tpos u = p.
Proof.
  induction l as [|x l IH]; intros p H; [discriminate|]. unfold brun in H. cbn [fold_left] in H.
  destruct (real x) eqn:RX.
  - exists [], x, l. split; [reflexivity|split; [reflexivity|split; [exact RX|]]].
    unfold real, isblock, transparent in RX. unfold bstep in H.
    destruct (ty x); try discriminate; (destruct (pos_eqb p (tpos x)) eqn:E; [symmetry; exact (pos_eqb_eq _ _ E)|rewrite bfold_none in H; discriminate]).
  - assert (S1: bstep (Some (Some p)) x = Some (Some p) \/ bstep (Some (Some p)) x = None).
    { unfold real, isblock, transparent in RX. unfold bstep. destruct (ty x); try discriminate; [destruct (pos_eqb p (tpos x)); auto ..|left; reflexivity]. }
    destruct S1 as [S1|S1]; rewrite S1 in H; [|rewrite bfold_none in H; discriminate].
    destruct (IH p H) as (bs & u & rest & -> & F & RU & PU). exists (x :: bs), u, rest. split; [reflexivity|split; [|split; assumption]].
    cbn [forallb]. rewrite F, andb_true_r. unfold real in RX. destruct (isblock x); [reflexivity|]. destruct (transparent x); [reflexivity|discriminate].
Qed.

Theorem block_tokens_at_next_real : forall toks pre t post, brun None toks = Some None -> toks = pre ++ t :: post -> isblock t = true ->
  exists bs u rest, post = bs ++ u :: rest /\ forallb (fun x => isblock x || transparent x) bs = true /\ real u = true /\ tpos u = tpos t.
Proof.
  intros toks pre t post H E K. subst toks. unfold brun in H. rewrite fold_left_app in H.
  destruct (fold_left bstep pre (Some None)) as [w|] eqn:P; [|rewrite bfold_none in H; discriminate]. cbn [fold_left] in H.
  assert (S1: bstep (Some w) t = Some (Some (tpos t)) \/ bstep (Some w) t = None).
  { unfold isblock in K. unfold bstep. destruct (ty t); try discriminate;
      (destruct w as [p|]; [destruct (pos_eqb p (tpos t)) eqn:E; [apply pos_eqb_eq in E; subst p|]|]; auto). }
  destruct S1 as [S1|S1]; rewrite S1 in H; [exact (brun_owed _ _ H)|rewrite bfold_none in H; discriminate].
Qed.
