From Coq Require Import List NArith ZArith Bool Lia.
Import ListNotations.
Require Import Tok Engine.
Open Scope N_scope.

(* The engine of Engine.v (parso's BaseParser._add_token with error_recovery, convert_node and _recovery_tokenize of
   python/parser.py) as relations, so that a property of the parser is proved by induction over its steps and not by
   unfolding the functions once more.
   The node conversions only regroup children: `converted r ns t` has the four shapes convert_node can give, `params l l'`
   is what _create_params can do to a list of nodes, `regrouped` what Function.__init__ does to the `parameters` child.
   `ends P r` puts the results of a conversion and its errors into one statement - a result that P describes, or PAttr /
   PIndex / PGuard (Python's AttributeError, IndexError, a guard of the model) - so that create_params, regroup_func,
   convert_node and pop are each walked through once.
   add_token_eq unfolds add_token into operations on the stack.  `added t m f p p'` is one successful call of add_token
   with fuel f: pops and the missing-newline repair, then either the shift of the token or error recovery (the frames
   above the one current_suite chooses are cut off and wrapped into an error node, or an error leaf is added; a suite on
   top is moved over its `stmt` arc).  The flag m says whether recovery took place; add_token looks at its argument
   `recover` only where recovery would start, so `recover` only bounds m (add_token_added).  After every such call the
   top frame holds a node (`full`).
   feed_inv, finish_inv and parse_inv carry a property of the stack and the tokens still to come that `added`, a dropped
   DEDENT and the pops of finish keep from the start to the root frame that finish converts. *)

Lemma forallb_rev {A} (f : A -> bool) l : forallb f (rev l) = forallb f l.
Proof. induction l as [|x r IH]; [reflexivity|]. cbn [rev forallb]. rewrite forallb_app, IH. cbn [forallb]. rewrite andb_true_r. apply andb_comm. Qed.

Section Step.
Variable G : gram.
Variable TR : list (N * list (label * plan)).

Inductive params : list tree -> list tree -> Prop :=
| pa_refl l : params l l
| pa_app a a' b b' : params a a' -> params b b' -> params (a ++ b) (a' ++ b')
| pa_wrap pc : pc <> [] -> params pc [Node KParam pc]
| pa_open r cs cs' : params cs cs' -> params [Node (KRule r) cs] cs'.

Lemma split_params_params : forall cs cur, params (cur ++ cs) (split_params cs cur).
Proof.
  assert (FL: forall pc, params pc (match pc with
                                    | [] => []
                                    | p0 :: rest => if (is_op p0 star && match rest with [] => true | p1 :: _ => is_op p1 comma end) || is_op p0 slash
                                                    then pc else [Node KParam pc] end)).
  { intros [|p0 rest]; [apply pa_refl|]. destruct ((is_op p0 star && _) || is_op p0 slash); [apply pa_refl|apply pa_wrap; discriminate]. }
  induction cs as [|c t IH]; intros cur; cbn [split_params].
  - rewrite app_nil_r. apply FL.
  - replace (cur ++ c :: t) with ((cur ++ [c]) ++ t) by (rewrite <- app_assoc; reflexivity).
    destruct (is_op c comma); [apply pa_app; [apply FL|apply (IH [])]|apply IH].
Qed.

Definition ends {A} (P : A -> Prop) (r : pres A) : Prop :=
  match r with POk a => P a | PErr e => e = PAttr \/ e = PIndex \/ e = PGuard end.
Lemma ends_bind {A B} (P : A -> Prop) (Q : B -> Prop) r (k : A -> pres B) :
  ends P r -> (forall a, P a -> ends Q (k a)) -> ends Q (match r with POk a => k a | PErr e => PErr e end).
Proof. destruct r as [a|e]; intros H K; [apply K|]; exact H. Qed.
Lemma ends_ok {A} (P : A -> Prop) r a : ends P r -> r = POk a -> P a.
Proof. intros H ->. exact H. Qed.
Lemma ends_err {A} (P : A -> Prop) r e : ends P r -> r = PErr e -> e = PAttr \/ e = PIndex \/ e = PGuard.
Proof. intros H ->. exact H. Qed.

Lemma create_params_ends l : existsb is_param l = false -> ends (params l) (create_params G l).
Proof.
  unfold create_params. destruct l as [|first [|x rest]]; [intros _; apply pa_refl| |intros _; right; right; reflexivity].
  cbn [is_nil_t negb existsb]. rewrite orb_false_r.
  destruct (is_name first || match node_rule first with Some r => r =? r_fpdef G | None => false end).
  { intros _. apply pa_wrap. discriminate. }
  destruct (is_op first star); [intros _; apply pa_refl|].
  destruct first as [k v p l c|[r| |] cs]; cbn [node_rule is_param]; [intros _; left; reflexivity| |intros _; right; right; reflexivity|discriminate].
  intros _. destruct (r =? r_tfpdef G); [apply pa_wrap; discriminate|apply pa_open, (split_params_params cs [])].
Qed.

(* Function.__init__ rewrites the children of the `parameters` child *)
Inductive regrouped : list tree -> list tree -> Prop :=
| rg_at a pcs pcs' b : params pcs pcs' ->
    regrouped (a ++ Node (KRule (r_parameters G)) pcs :: b) (a ++ Node (KRule (r_parameters G)) pcs' :: b).

Lemma regroup_func_ends : forall cs, ends (regrouped cs) (regroup_func G cs).
Proof.
  induction cs as [|c t IH]; cbn [regroup_func]; [left; reflexivity|].
  assert (REC: ends (regrouped (c :: t)) (match regroup_func G t with POk t' => POk (c :: t') | PErr e => PErr e end)).
  { apply (ends_bind _ _ _ _ IH). intros t' [a pcs pcs' b P]. exact (rg_at (c :: a) _ _ _ P). }
  destruct c as [k v p l c0|[pr| |] pcs]; try exact REC.
  destruct (pr =? r_parameters G) eqn:PR; [|exact REC]. apply N.eqb_eq in PR. subst pr. clear REC.
  destruct (existsb is_param (removelast (tl pcs))) eqn:EP; [exact (rg_at [] _ _ _ (pa_refl pcs))|].
  apply (ends_bind _ _ _ _ (create_params_ends _ EP)). intros np P.
  destruct pcs as [|p0 [|p1 pr2]]; [right; left; reflexivity|right; right; reflexivity|].
  (* the children are p0, the argument list, and the last one *)
  destruct (exists_last (l := p1 :: pr2)) as (inner & pl & E); [discriminate|]. cbn [tl] in P. rewrite E in P |- *.
  rewrite removelast_last in P. cbn [rev]. rewrite rev_unit. cbn [app].
  apply (rg_at []), (pa_app [p0] [p0]); [apply pa_refl|apply pa_app; [exact P|apply pa_refl]].
Qed.

(* suite drops its INDENT / DEDENT children; a lambdef_nocond node comes out as lambdef (node_map gives both tree.Lambda) *)
Inductive converted (r : N) (ns : list tree) : tree -> Prop :=
| cv_same : converted r ns (Node (KRule r) ns)
| cv_suite c0 c1 mid last : ns = c0 :: c1 :: mid ++ last -> blank c1 = true -> forallb blank last = true ->
    converted r ns (Node (KRule r) (c0 :: mid))
| cv_func ns' : regrouped ns ns' -> converted r ns (Node (KRule r) ns')
| cv_lambda kw rest rest' : r = r_lambdef G \/ r = r_lambdef_nocond G -> ns = kw :: rest -> params rest rest' ->
    converted r ns (Node (KRule (r_lambdef G)) (kw :: rest')).

Lemma convert_node_ends r ns : ends (converted r ns) (convert_node G r ns).
Proof.
  unfold convert_node. destruct (r =? r_suite G).
  - destruct ns as [|c0 [|c1 rest]]; [right; left; reflexivity|apply cv_same|].
    destruct (blank c1 && match rev rest with [] => true | cl :: _ => blank cl end) eqn:B; [|right; right; reflexivity].
    apply andb_true_iff in B as [B1 B2]. destruct rest as [|cl mid _] using rev_ind.
    + apply (cv_suite _ _ c0 c1 [] []); [reflexivity|exact B1|reflexivity].
    + rewrite rev_unit in B2. rewrite removelast_last.
      apply (cv_suite _ _ c0 c1 mid [cl]); [reflexivity|exact B1|cbn [forallb]; rewrite B2; reflexivity].
  - destruct (r =? r_funcdef G).
    + apply (ends_bind _ _ _ _ (regroup_func_ends ns)). intros cs RG. apply cv_func, RG.
    + destruct ((r =? r_lambdef G) || (r =? r_lambdef_nocond G)) eqn:LM; [|apply cv_same].
      assert (RL: r = r_lambdef G \/ r = r_lambdef_nocond G).
      { apply orb_true_iff in LM as [LM|LM]; apply N.eqb_eq in LM; [left|right]; exact LM. }
      destruct ns as [|kw rest]; [right; left; reflexivity|].
      destruct (existsb is_param (firstn (length rest - 2) rest)) eqn:EP.
      { eapply cv_lambda; [exact RL|reflexivity|apply pa_refl]. }
      apply (ends_bind _ _ _ _ (create_params_ends _ EP)). intros np P. eapply cv_lambda; [exact RL|reflexivity|].
      rewrite <- (firstn_skipn (length rest - 2) rest) at 1. apply pa_app; [exact P|apply pa_refl].
Qed.
Lemma convert_node_spec r ns t : convert_node G r ns = POk t -> converted r ns t.
Proof. apply ends_ok, convert_node_ends. Qed.

Definition put (fr : frame) (x : tree) : frame := mkFr (f_dfa fr) (f_nodes fr ++ [x]).
Definition goto (q : N) (fr : frame) : frame := mkFr q (f_nodes fr).
Definition add_top (x : tree) (s : list frame) : list frame :=
  match s with top :: r => put top x :: r | [] => [] end.
Definition pushes (ch : list N) (base : list frame) : list frame := fold_left (fun st q => mkFr q [] :: st) ch base.
Definition planned (pl : plan) (tos : frame) (rest : list frame) : list frame :=
  pushes (p_pushes pl) (goto (p_next pl) tos :: rest).
Definition frame_node (fr : frame) : pres tree :=
  match f_nodes fr with [x] => POk x | ns => convert_node G (rule_of G (f_dfa fr)) ns end.
Definition err_leaf (t : Token) : tree := Leaf (KErrorLeaf (ty t)) (ts t) (tpre t) (tline t) (tcol t).
(* the end of error_recovery *)
Definition fix_suite (s : list frame) : list frame :=
  match s with
  | top :: r => if rule_of G (f_dfa top) =? r_suite G
                then match arc_nt G (f_dfa top) (r_stmt G) with Some q => goto q top :: r | None => s end
                else s
  | [] => [] end.
(* the missing-newline test of error_recovery: the NEWLINE plan that is taken instead of the token, if any *)
Definition last_leaf_of (fr : frame) : option str := match rev (f_nodes fr) with [] => None | x :: _ => last_leaf_value x end.
Definition newline_plan (tos : frame) : option plan :=
  if rule_of G (f_dfa tos) =? r_simple_stmt G then
    match trans TR (f_dfa tos) (LType NEWLINE) with
    | Some pl => if final G (p_next pl) && match p_pushes pl with [] => true | _ => false end then Some pl else None
    | None => None end
  else None.
Definition repair (tos : frame) (t : Token) : pres (option plan) :=
  match ty t with
  | ENDMARKER => POk (newline_plan tos)
  | DEDENT => match last_leaf_of tos with
              | None => PErr PAttr
              | Some v => POk (if ends_newline v then None else newline_plan tos) end
  | _ => POk None end.

Lemma pushes_eq ch : forall base, pushes ch base = map (fun q => mkFr q []) (rev ch) ++ base.
Proof. induction ch as [|q ch IH]; intros base; [reflexivity|]. cbn [pushes fold_left rev]. fold (pushes ch (mkFr q [] :: base)). rewrite IH, map_app, <- app_assoc. reflexivity. Qed.
Lemma pushes_nonempty ch base : base <> [] -> pushes ch base <> [].
Proof. rewrite pushes_eq. intros NE E. apply app_eq_nil in E as [_ E]. exact (NE E). Qed.
Lemma planned_nonempty pl tos rest : planned pl tos rest <> [].
Proof. apply pushes_nonempty. discriminate. Qed.
Lemma add_top_nonempty x s : s <> [] -> add_top x s <> [].
Proof. destruct s; [intros []; reflexivity|discriminate]. Qed.
Lemma add_top_planned x pl tos rest :
  exists top r, planned pl tos rest = top :: r /\ add_top x (planned pl tos rest) = put top x :: r.
Proof. destruct (planned pl tos rest) as [|top r] eqn:E; [destruct (planned_nonempty _ _ _ E)|]. exists top, r. split; reflexivity. Qed.
Lemma pushes_keeps {X} (F : list frame -> X) : (forall q s, F (mkFr q [] :: s) = F s) -> forall ch base, F (pushes ch base) = F base.
Proof. intros E ch. unfold pushes. induction ch as [|q ch IH]; intros base; [reflexivity|]. cbn [fold_left]. rewrite IH. apply E. Qed.

Inductive fixed : list frame -> list frame -> Prop :=
| fx_same s : fixed s s
| fx_stmt top r q : rule_of G (f_dfa top) = r_suite G -> arc_nt G (f_dfa top) (r_stmt G) = Some q -> fixed (top :: r) (goto q top :: r).
Lemma fix_suite_fixed s : fixed s (fix_suite s).
Proof.
  destruct s as [|top r]; [apply fx_same|]. cbn [fix_suite]. destruct (_ =? _) eqn:RS; [|apply fx_same].
  destruct (arc_nt _ _ _) eqn:A; [apply fx_stmt; [apply N.eqb_eq, RS|exact A]|apply fx_same].
Qed.
Lemma fix_suite_nonempty s : s <> [] -> fix_suite s <> [].
Proof. destruct (fix_suite_fixed s); [exact id|discriminate]. Qed.

Definition full (s : list frame) : Prop := match s with top :: _ => f_nodes top <> [] | [] => False end.
Lemma full_add_top x s : s <> [] -> full (add_top x s).
Proof. destruct s as [|top r]; [intros []; reflexivity|]. intros _ E. apply app_eq_nil in E as [_ E]. discriminate. Qed.
Lemma full_fix_suite s : full s -> full (fix_suite s).
Proof. destruct (fix_suite_fixed s); exact id. Qed.

Lemma pop_cons tos rest : rest <> [] ->
  pop G (tos :: rest) = match frame_node tos with POk nd => POk (add_top nd rest) | PErr e => PErr e end.
Proof. destruct rest; [intros []|]; reflexivity. Qed.
Lemma frame_node_ends fr : ends (fun nd => f_nodes fr = [nd] \/ converted (rule_of G (f_dfa fr)) (f_nodes fr) nd) (frame_node fr).
Proof.
  unfold frame_node. pose proof (convert_node_ends (rule_of G (f_dfa fr)) (f_nodes fr)) as H.
  destruct (f_nodes fr) as [|x [|y r]]; [|left; reflexivity|]; (destruct (convert_node _ _ _); [right|]; exact H).
Qed.
Lemma frame_node_spec fr nd : frame_node fr = POk nd -> f_nodes fr = [nd] \/ converted (rule_of G (f_dfa fr)) (f_nodes fr) nd.
Proof. exact (ends_ok _ _ _ (frame_node_ends fr)). Qed.
Lemma pop_ends s : ends (fun s' => exists tos below rest nd, s = tos :: below :: rest /\ frame_node tos = POk nd /\ s' = put below nd :: rest) (pop G s).
Proof.
  destruct s as [|tos [|below rest]]; [right; left; reflexivity|right; left; reflexivity|]. rewrite pop_cons by discriminate.
  pose proof (frame_node_ends tos) as H. destruct (frame_node tos) as [nd|e] eqn:C; [exists tos, below, rest, nd; auto|exact H].
Qed.
Lemma pop_inv s s' : pop G s = POk s' ->
  exists tos below rest nd, s = tos :: below :: rest /\ frame_node tos = POk nd /\ s' = put below nd :: rest.
Proof. exact (ends_ok _ _ _ (pop_ends s)). Qed.

Lemma pop_full s s' : pop G s = POk s' -> full s'.
Proof. intros P. destruct (pop_inv _ _ P) as (tos & below & rest & nd & _ & _ & ->). apply (full_add_top nd (below :: rest)). discriminate. Qed.

Lemma repair_some tos t pl : repair tos t = POk (Some pl) ->
  rule_of G (f_dfa tos) = r_simple_stmt G /\ trans TR (f_dfa tos) (LType NEWLINE) = Some pl /\
  final G (p_next pl) = true /\ p_pushes pl = [].
Proof.
  intros H. assert (NP: newline_plan tos = Some pl).
  { unfold repair in H. destruct (ty t); try discriminate; [|injection H as H; exact H].
    destruct (last_leaf_of tos) as [v|]; [|discriminate]. destruct (ends_newline v); [discriminate|injection H as H; exact H]. }
  unfold newline_plan in NP. destruct (_ =? _) eqn:R; [|discriminate]. destruct (trans _ _ _) as [pl'|]; [|discriminate].
  destruct (final G (p_next pl')) eqn:F; [|discriminate]. destruct (p_pushes pl') eqn:P; [|discriminate].
  injection NP as <-. apply N.eqb_eq in R. auto.
Qed.
Lemma repair_err tos t e : repair tos t = PErr e -> e = PAttr.
Proof. unfold repair. destruct (ty t); try discriminate. destruct (last_leaf_of tos); [discriminate|intros [= <-]; reflexivity]. Qed.

Lemma current_suite_cons fr g r : current_suite G (fr :: g :: r) =
  if rule_of G (f_dfa fr) =? r_file_input G then 0%nat
  else if (rule_of G (f_dfa fr) =? r_suite G) && negb (Nat.eqb (length (f_nodes fr)) 1) then 0%nat
  else S (current_suite G (g :: r)).
Proof. reflexivity. Qed.
Lemma current_suite_lt : forall s, s <> [] -> (current_suite G s < length s)%nat.
Proof.
  induction s as [|fr [|g r] IH]; intros NE; [contradiction|apply Nat.lt_0_succ|]. rewrite current_suite_cons.
  specialize (IH ltac:(discriminate)). cbn [length] in *. destruct (_ =? _); [apply Nat.lt_0_succ|].
  destruct (_ && _); [apply Nat.lt_0_succ|apply -> Nat.succ_lt_mono; exact IH].
Qed.

Definition cut_at (s gone : list frame) (below : frame) (r : list frame) : Prop :=
  s = gone ++ below :: r /\ length gone = current_suite G s.

Lemma cut_exists s : s <> [] -> exists gone below r, cut_at s gone below r.
Proof.
  intros NE. pose proof (current_suite_lt s NE) as LT. destruct (skipn (current_suite G s) s) as [|below r] eqn:SK.
  { apply (f_equal (@length frame)) in SK. rewrite skipn_length in SK. cbn [length] in SK. lia. }
  exists (firstn (current_suite G s) s), below, r. split; [rewrite <- SK; symmetry; apply firstn_skipn|]. rewrite firstn_length. lia.
Qed.
Lemma cut_at_rule : forall s gone below r, cut_at s gone below r ->
  r = [] \/ rule_of G (f_dfa below) = r_file_input G \/ rule_of G (f_dfa below) = r_suite G.
Proof.
  induction s as [|x [|y rest] IH]; intros gone below r [E L]; [destruct gone; discriminate| |].
  - destruct gone as [|g [|g' gone]]; [inversion E; left; reflexivity|discriminate|discriminate].
  - rewrite current_suite_cons in L. destruct (_ =? _) eqn:E1.
    { destruct gone; [|discriminate]. inversion E; subst. right. left. apply N.eqb_eq. exact E1. }
    destruct (_ && _) eqn:E2.
    { destruct gone; [|discriminate]. inversion E; subst. right. right. apply andb_true_iff in E2 as [E2 _]. apply N.eqb_eq. exact E2. }
    destruct gone as [|g gone]; [discriminate|]. inversion E; subst g. apply (IH gone below r). split; [assumption|apply eq_add_S, L].
Qed.
Lemma stack_removal_cut s gone below r : cut_at s gone below r ->
  stack_removal s (current_suite G s) = match flat_map f_nodes (rev gone) with
                                        | [] => (below :: r, false)
                                        | ns => (put below (Node KErrorNode ns) :: r, true) end.
Proof.
  intros [E L]. rewrite <- L. subst s. unfold stack_removal.
  rewrite firstn_app, skipn_app, firstn_all, skipn_all, Nat.sub_diag, app_nil_r. cbn [firstn skipn app].
  destruct (flat_map _ _); reflexivity.
Qed.

Lemma add_token_eq f recover tos rest om ic t :
  add_token G TR (S f) recover (mkP (tos :: rest) om ic) t =
  match trans TR (f_dfa tos) (token_label G t) with
  | Some pl => POk (mkP (add_top (convert_leaf G t) (planned pl tos rest)) om ic)
  | None =>
    if final G (f_dfa tos) then
      match pop G (tos :: rest) with POk s' => add_token G TR f recover (mkP s' om ic) t | PErr e => PErr e end
    else
      match repair tos t with
      | PErr e => PErr e
      | POk (Some pl) => add_token G TR f recover (mkP (goto (p_next pl) tos :: rest) om ic) t
      | POk None =>
        if recover then
          let (s1, removed) := stack_removal (tos :: rest) (current_suite G (tos :: rest)) in
          match (if removed : bool then add_token G TR f recover (mkP s1 om ic) t
                 else POk (mkP (add_top (err_leaf t) s1) (match ty t with INDENT => om ++ [ic] | _ => om end) ic)) with
          | POk p2 => match stack p2 with [] => PErr PIndex | s2 => POk (mkP (fix_suite s2) (omit p2) (icount p2)) end
          | PErr e => PErr e end
        else PErr (SyntaxErr t)
      end
  end.
Proof.
  cbn [add_token stack omit icount].
  destruct (trans TR (f_dfa tos) (token_label G t)) as [pl|].
  { fold (goto (p_next pl) tos). fold (pushes (p_pushes pl) (goto (p_next pl) tos :: rest)). fold (planned pl tos rest).
    destruct (add_top_planned (convert_leaf G t) pl tos rest) as (top & r & -> & _). reflexivity. }
  destruct (final G (f_dfa tos)); [reflexivity|].
  fold (last_leaf_of tos). unfold repair, newline_plan.
  set (tl := if negb recover then _ else _). set (tr := if recover then _ else _).
  (* tl is add_token's own text after the missing-newline test: `if negb recover` with the error leaf and the
     suite fix-up written out; tr says the same with the branches exchanged, through add_top and fix_suite *)
  assert (E: tl = tr).
  { subst tl tr. destruct recover; [cbn [negb]|reflexivity].
    destruct (stack_removal _ _) as [s1 [|]];
      [destruct (add_token _ _ _ _ _ _) as [[[|top r] om2 ic2]|]|destruct s1 as [|top r]]; try reflexivity;
      cbn [add_top put stack omit icount fix_suite f_dfa]; (destruct (_ =? _); [destruct (arc_nt _ _ _)|]); reflexivity. }
  clearbody tl tr. subst tr.
  destruct (ty t); try reflexivity; [destruct (last_leaf_of tos) as [v|]; [destruct (ends_newline v)|]; try reflexivity|];
    cbn [negb]; (destruct (_ =? _); [|reflexivity]); (destruct (trans _ _ _) as [pl|]; [|reflexivity]);
    (destruct (_ && _); [|reflexivity]); destruct (add_token _ _ _ _ _ _); reflexivity.
Qed.

Definition stuck (tos : frame) (t : Token) : Prop :=
  trans TR (f_dfa tos) (token_label G t) = None /\ final G (f_dfa tos) = false /\ repair tos t = POk None.

Inductive added (t : Token) : bool -> nat -> pstate -> pstate -> Prop :=
| added_shift f tos rest om ic pl :
    trans TR (f_dfa tos) (token_label G t) = Some pl ->
    added t false (S f) (mkP (tos :: rest) om ic) (mkP (add_top (convert_leaf G t) (planned pl tos rest)) om ic)
| added_pop m f tos rest om ic s' p' :
    trans TR (f_dfa tos) (token_label G t) = None -> final G (f_dfa tos) = true ->
    pop G (tos :: rest) = POk s' -> added t m f (mkP s' om ic) p' ->
    added t m (S f) (mkP (tos :: rest) om ic) p'
| added_newline m f tos rest om ic pl p' :
    trans TR (f_dfa tos) (token_label G t) = None -> final G (f_dfa tos) = false ->
    repair tos t = POk (Some pl) -> added t m f (mkP (goto (p_next pl) tos :: rest) om ic) p' ->
    added t m (S f) (mkP (tos :: rest) om ic) p'
(* when the inner call recovers too, s2 has already gone through fix_suite: the result passes through it twice *)
| added_err_node m f tos rest om ic gone below r n ns s2 om2 ic2 :
    stuck tos t -> cut_at (tos :: rest) gone below r -> flat_map f_nodes (rev gone) = n :: ns ->
    added t m f (mkP (put below (Node KErrorNode (n :: ns)) :: r) om ic) (mkP s2 om2 ic2) ->
    added t true (S f) (mkP (tos :: rest) om ic) (mkP (fix_suite s2) om2 ic2)
| added_err_leaf f tos rest om ic gone below r :
    stuck tos t -> cut_at (tos :: rest) gone below r -> flat_map f_nodes (rev gone) = [] ->
    added t true (S f) (mkP (tos :: rest) om ic)
        (mkP (fix_suite (put below (err_leaf t) :: r)) (match ty t with INDENT => om ++ [ic] | _ => om end) ic).

Lemma added_full t m f p p' : added t m f p p' -> full (stack p').
Proof.
  induction 1 as [f tos rest om ic pl T|m f tos rest om ic s' p' T F P R IH|m f tos rest om ic pl p' T F P R IH
                 |m f tos rest om ic gone below r n ns s2 om2 ic2 ST C AN R IH|f tos rest om ic gone below r ST C AN]; cbn [stack] in *; try exact IH.
  - apply full_add_top, planned_nonempty.
  - apply full_fix_suite, IH.
  - apply full_fix_suite, (full_add_top _ (below :: r)). discriminate.
Qed.

Theorem add_token_added f recover p t p' :
  add_token G TR f recover p t = POk p' <-> exists m, added t m f p p' /\ (recover = false -> m = false).
Proof.
  split.
  - revert p p'. induction f as [|f IH]; intros [[|tos rest] om ic] p'; try discriminate. rewrite add_token_eq.
    destruct (trans _ _ _) as [pl|] eqn:T; [intros [= <-]; exists false; split; [apply added_shift; exact T|reflexivity]|].
    destruct (final _ _) eqn:F.
    { destruct (pop _ _) as [s'|] eqn:P; [|discriminate]. intros H. destruct (IH _ _ H) as (m & R & M).
      exists m. split; [eapply added_pop; eassumption|exact M]. }
    destruct (repair tos t) as [[pl|]|] eqn:RP; [| |discriminate].
    { intros H. destruct (IH _ _ H) as (m & R & M). exists m. split; [eapply added_newline; eassumption|exact M]. }
    destruct recover; [|discriminate]. assert (ST: stuck tos t) by (repeat split; assumption).
    destruct (cut_exists (tos :: rest) ltac:(discriminate)) as (gone & below & r & C). rewrite (stack_removal_cut _ _ _ _ C).
    destruct (flat_map f_nodes (rev gone)) as [|n ns] eqn:AN.
    + intros [= <-]. exists true. split; [eapply added_err_leaf; eassumption|discriminate].
    + destruct (add_token _ _ _ _ _ _) as [[s2 om2 ic2]|] eqn:A; [|discriminate]. destruct (IH _ _ A) as (m & R & _).
      cbn [stack omit icount]. destruct s2 as [|top r2] eqn:S2; [discriminate|]. rewrite <- S2 in *. intros [= <-].
      exists true. split; [eapply added_err_node; eassumption|discriminate].
  - intros (m & R & M). revert recover M.
    induction R as [f tos rest om ic pl T|m f tos rest om ic s' p' T F P R IH|m f tos rest om ic pl p' T F P R IH
                   |m f tos rest om ic gone below r n ns s2 om2 ic2 (T & F & P) C AN R IH|f tos rest om ic gone below r (T & F & P) C AN];
      intros recover M; rewrite add_token_eq, T; [reflexivity|rewrite F, P; exact (IH _ M)|rewrite F, P; exact (IH _ M)|..];
      (destruct recover; [|discriminate (M eq_refl)]); rewrite F, P, (stack_removal_cut _ _ _ _ C), AN.
    + rewrite (IH true) by discriminate. cbn [stack omit icount]. apply added_full in R. destruct s2; [destruct R|reflexivity].
    + reflexivity.
Qed.

Lemma add_token_full f recover p t p' : add_token G TR f recover p t = POk p' -> full (stack p').
Proof. intros A. apply add_token_added in A as (m & A & _). exact (added_full _ _ _ _ _ A). Qed.

(* _recovery_tokenize on one token: the indentation counter it hands on with the token, or None when it drops a DEDENT *)
Definition retok (recover : bool) (om : list Z) (ic : Z) (t : Token) : option Z :=
  if recover then
    match ty t with
    | DEDENT => match last_z om with
                | Some o => if (o =? ic)%Z then None else Some (ic - 1)%Z
                | None => Some (ic - 1)%Z end
    | INDENT => Some (ic + 1)%Z
    | _ => Some ic end
  else Some ic.
Lemma retok_none recover om ic t : retok recover om ic t = None -> ty t = DEDENT.
Proof. unfold retok. destruct recover; [|discriminate]. destruct (ty t); try discriminate. reflexivity. Qed.

Lemma feed_cons recover s om ic t toks :
  feed G TR recover (mkP s om ic) (t :: toks) =
  match retok recover om ic t with
  | None => feed G TR recover (mkP s (removelast om) (ic - 1)%Z) toks
  | Some ic1 => match add_token G TR (S (S (2 * length s))) recover (mkP s om ic1) t with
                | POk p2 => feed G TR recover p2 toks
                | PErr e => PErr e end
  end.
Proof.
  cbn [feed stack omit icount]. unfold retok. destruct recover; [|reflexivity].
  destruct (ty t); try reflexivity. destruct (last_z om); [destruct (_ =? _)%Z|]; reflexivity.
Qed.

Section Inv.
Variable recover : bool.
Variable I : list Token -> list frame -> Prop.
Hypothesis added_I : forall t toks m f p p', (recover = false -> m = false) -> added t m f p p' ->
  I (t :: toks) (stack p) -> I toks (stack p').
(* a DEDENT that the recovery tokenizer drops *)
Hypothesis skip_I : forall t toks s, ty t = DEDENT -> I (t :: toks) s -> I toks s.
Hypothesis pop_I : forall tos rest s', final G (f_dfa tos) = true -> pop G (tos :: rest) = POk s' -> I [] (tos :: rest) -> I [] s'.

Lemma feed_inv : forall toks p p', feed G TR recover p toks = POk p' -> I toks (stack p) -> I [] (stack p').
Proof.
  induction toks as [|t toks IH]; intros [s om ic] p'; [intros [= <-] H; exact H|]. rewrite feed_cons.
  destruct (retok recover om ic t) as [ic1|] eqn:RT.
  - destruct (add_token _ _ _ _ _ _) as [p2|] eqn:A; [|discriminate]. apply add_token_added in A as (m & A & M).
    intros H S. apply (IH _ _ H). exact (added_I _ _ _ _ _ _ M A S).
  - intros H S. apply (IH _ _ H). exact (skip_I _ _ _ (retok_none _ _ _ _ RT) S).
Qed.

Lemma finish_inv : forall fuel s t, finish G fuel s = POk t -> I [] s ->
  exists root, I [] [root] /\ final G (f_dfa root) = true /\ convert_node G (rule_of G (f_dfa root)) (f_nodes root) = POk t.
Proof.
  induction fuel as [|f IH]; intros [|tos rest] t; try discriminate. cbn [finish].
  destruct (final G (f_dfa tos)) eqn:F; [|discriminate]. cbn [negb]. destruct rest as [|below rest].
  - intros H S. exists tos. auto.
  - destruct (pop G _) as [s'|] eqn:P; [|discriminate]. intros H S. apply (IH _ _ H). exact (pop_I _ _ _ F P S).
Qed.

Lemma parse_inv S0 toks t : parse G TR recover S0 toks = POk t ->
  (forall q0, assocN S0 (g_start G) = Some q0 -> I toks [mkFr q0 []]) ->
  exists root, I [] [root] /\ final G (f_dfa root) = true /\ convert_node G (rule_of G (f_dfa root)) (f_nodes root) = POk t.
Proof.
  unfold parse. destruct (assocN S0 (g_start G)) as [q0|]; [|discriminate].
  destruct (feed _ _ _ _ _) as [p|] eqn:F; [|discriminate]. intros H S.
  apply (finish_inv _ _ _ H). apply (feed_inv _ _ _ F). apply S. reflexivity.
Qed.
End Inv.
End Step.
