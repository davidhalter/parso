From Coq Require Import List NArith Bool.
Import ListNotations.
Require Import Tok Engine EngineStep LL1Inst.
Open Scope N_scope.

(* C05, second sentence: error nodes / error leaves occur only where a statement or block is expected.

   H is a set of rules (the "holders").  good t: in every rule node of t that has an error node or error leaf among its
   CHILDREN the rule is in H; a param node never has one; (and a child rule in H implies the parent rule in H - the
   closure that makes the statement an invariant).  Error nodes themselves may contain anything that was on the stack.

   errors_confined: every tree the engine returns - strict or recovering, any token list - is good, provided the start
   rule is in H and G, TR and H pass confine_ok: plans keep the rule of the state they leave and push only chains
   r1 r2 ... with "ri in H -> the rule below in H"; arcs stay inside their rule; file_input and suite, where recovery
   puts its markers, are in H; parameters / lambdef, whose children _create_params regroups, are not.

   errors_confined_gen asks only for what confine_ok establishes (`confining`); the per-version files get that from the
   test of PlanCheck.v.  They instantiate H with `holders` (file_input, suite and, iterated, every rule with an arc labelled
   by a member) and show by vm_compute what it contains: the statement-level rules listed in gen/LL1_<v>.v - no
   expression and no simple statement rule. *)

Definition is_marker (t : tree) : bool :=
  match t with Leaf (KErrorLeaf _) _ _ _ _ => true | Node KErrorNode _ => true | _ => false end.

(* the least holder set of a grammar: file_input, suite and every rule with an arc labelled by a holder *)
Definition has_arc_to (G : gram) (Hs : list N) (r : N) : bool :=
  existsb (fun d => (d_rule d =? r) &&
                    existsb (fun a : sym * N => match fst a with NT h => existsb (N.eqb h) Hs | T _ => false end) (d_arcs d)) (g_states G).
Fixpoint grow (G : gram) (fuel : nat) (Hs : list N) : list N :=
  match fuel with
  | O => Hs
  | S f => match filter (fun r => negb (existsb (N.eqb r) Hs) && has_arc_to G Hs r) (map fst (g_start G)) with
           | [] => Hs
           | new => grow G f (Hs ++ new)
           end
  end.
Definition holders (G : gram) : list N := grow G (length (g_start G)) [r_file_input G; r_suite G].

Section Confine.
Variable G : gram.
Variable TR : list (N * list (label * plan)).
Variable H : list N.

Definition inH (r : N) : bool := existsb (N.eqb r) H.

Definition kid_ok (p : N) (c : tree) : bool :=
  (negb (is_marker c) || inH p) && match node_rule c with Some r => implb (inH r) (inH p) | None => true end.
Definition kids_ok (p : N) (cs : list tree) : bool := forallb (kid_ok p) cs.

Fixpoint good (t : tree) : bool :=
  match t with
  | Leaf _ _ _ _ _ => true
  | Node k cs => (fix all (l : list tree) : bool := match l with [] => true | c :: r => good c && all r end) cs &&
                 match k with
                 | KRule p => kids_ok p cs
                 | KErrorNode => true
                 | KParam => negb (existsb is_marker cs)
                 end
  end.
Definition goods (l : list tree) : bool := forallb good l.
Lemma good_node k cs : good (Node k cs) = goods cs && match k with KRule p => kids_ok p cs | KErrorNode => true | KParam => negb (existsb is_marker cs) end.
Proof. reflexivity. Qed.

Definition plain (c : tree) : bool := negb (is_marker c) && match node_rule c with Some r => negb (inH r) | None => true end.
Lemma kparam_plain pc : plain (Node KParam pc) = true.
Proof. reflexivity. Qed.

Definition fit (p : N) (c : tree) : bool := good c && kid_ok p c.
Lemma good_rule p cs : good (Node (KRule p) cs) = forallb (fit p) cs.
Proof.
  rewrite good_node. unfold goods, kids_ok, fit. induction cs as [|c r IH]; [reflexivity|]. cbn [forallb]. rewrite <- IH.
  destruct (good c), (kid_ok p c), (forallb good r); reflexivity.
Qed.
Lemma fit_rule p r cs : fit p (Node (KRule r) cs) = forallb (fit r) cs && implb (inH r) (inH p).
Proof. rewrite <- good_rule. reflexivity. Qed.
Lemma fit_good p c : fit p c = true -> good c = true.
Proof. intros F. apply andb_true_iff in F. apply F. Qed.
Lemma fit_up a b x : implb (inH a) (inH b) = true -> fit a x = true -> fit b x = true.
Proof.
  unfold fit, kid_ok. intros I X. apply andb_true_iff in X as [GX X]. apply andb_true_iff in X as [X1 X2]. rewrite GX. destruct (inH a) eqn:A.
  - cbn [implb] in I. rewrite I, orb_true_r. cbn [andb]. destruct (node_rule x) as [r|]; [|reflexivity]. destruct (inH r); reflexivity.
  - rewrite orb_false_r in X1. rewrite X1. cbn [orb andb]. destruct (node_rule x) as [r|]; [|reflexivity].
    destruct (inH r); [discriminate|reflexivity].
Qed.
Lemma fits_notH p q cs : inH p = false -> inH q = false -> forallb (fit p) cs = forallb (fit q) cs.
Proof. intros P Q. induction cs as [|c r IH]; [reflexivity|]. cbn [forallb]. rewrite IH. unfold fit, kid_ok. rewrite P, Q. reflexivity. Qed.
Lemma fits_param p pc : inH p = false -> forallb (fit p) pc = true -> fit p (Node KParam pc) = true.
Proof.
  intros P F. unfold fit. rewrite good_node. cbn [kid_ok is_marker node_rule negb orb andb]. rewrite andb_true_r. unfold goods.
  induction pc as [|c r IH]; [reflexivity|]. cbn [forallb existsb] in *. apply andb_true_iff in F as [Fc Fr].
  unfold fit, kid_ok in Fc. rewrite P, orb_false_r in Fc. apply andb_true_iff in Fc as [Gc Fc]. apply andb_true_iff in Fc as [M _].
  apply negb_true_iff in M. rewrite Gc, M. exact (IH Fr).
Qed.

(* _create_params works on the children of a rule outside H *)
Lemma params_good l l' : params l l' -> forall p, inH p = false -> forallb (fit p) l = true -> forallb (fit p) l' = true.
Proof.
  induction 1 as [l|a a' b b' _ IHa _ IHb|pc _|r cs cs' _ IH]; intros p NP F.
  - exact F.
  - rewrite forallb_app in *. apply andb_true_iff in F as [Fa Fb]. rewrite (IHa _ NP Fa). exact (IHb _ NP Fb).
  - cbn [forallb]. rewrite (fits_param _ _ NP F). reflexivity.
  - cbn [forallb] in F. rewrite andb_true_r, fit_rule in F. apply andb_true_iff in F as [F I].
    assert (NR: inH r = false) by (destruct (inH r); [rewrite NP in I; discriminate|reflexivity]).
    apply (IH _ NP). rewrite (fits_notH p r) by assumption. exact F.
Qed.

(* the rules whose children _create_params regroups: no marker directly under them *)
Definition t4 : Prop := inH (r_parameters G) = false /\ inH (r_lambdef G) = false /\ inH (r_lambdef_nocond G) = false.

Lemma converted_good r ns t : converted G r ns t -> t4 -> forall p, fit p (Node (KRule r) ns) = true -> fit p t = true.
Proof.
  intros [|c0 c1 mid last -> _ _|ns' [a pcs pcs' b P]|kw rest rest' RL -> P] (T1 & T2 & T3) p; rewrite !fit_rule; intros F;
    apply andb_true_iff in F as [F I].
  - rewrite F. exact I.
  - rewrite I, andb_true_r. cbn [forallb] in *. rewrite forallb_app in F.
    apply andb_true_iff in F as [F0 F]. apply andb_true_iff in F as [_ F]. apply andb_true_iff in F as [F _]. rewrite F0. exact F.
  - rewrite I, andb_true_r. rewrite forallb_app in *. cbn [forallb] in *. apply andb_true_iff in F as [Fa F]. apply andb_true_iff in F as [Fp Fb].
    rewrite fit_rule in *. apply andb_true_iff in Fp as [Fp Ip]. rewrite Fa, Fb, Ip, (params_good _ _ P _ T1 Fp). reflexivity.
  - assert (NH: inH r = false) by (destruct RL; subst r; assumption).
    rewrite T2, andb_true_r. rewrite (fits_notH r (r_lambdef G)) in F by assumption. cbn [forallb] in *.
    apply andb_true_iff in F as [Fk Fr]. rewrite Fk. exact (params_good _ _ P _ T2 Fr).
Qed.

Definition rule (fr : frame) : N := rule_of G (f_dfa fr).
Definition frame_ok (fr : frame) : bool := goods (f_nodes fr) && kids_ok (rule fr) (f_nodes fr).
Fixpoint chainR (l : list N) : bool :=
  match l with
  | a :: r => match r with b :: _ => implb (inH a) (inH b) && chainR r | [] => true end
  | [] => true
  end.
Definition stack_ok (s : list frame) : bool :=
  forallb frame_ok s && chainR (map rule s) && inH (last (map rule s) 0).

Lemma frame_ok_fit fr : frame_ok fr = forallb (fit (rule fr)) (f_nodes fr).
Proof. apply good_rule. Qed.

Definition plan_ok (q : N) (pl : plan) : bool :=
  (rule_of G (p_next pl) =? rule_of G q) && chainR (map (rule_of G) (rev (p_pushes pl)) ++ [rule_of G q]).
Definition tr_ok : bool := forallb (fun e : N * list (label * plan) => forallb (fun lp : label * plan => plan_ok (fst e) (snd lp)) (snd e)) TR.
(* the test LL1Inst.arcs_in_rule_ok *)
Definition arcs_ok : bool := forallb (fun d => forallb (fun a : sym * N => rule_of G (snd a) =? d_rule d) (d_arcs d)) (g_states G).
Definition confine_ok : bool :=
  tr_ok && arcs_ok && inH (r_file_input G) && inH (r_suite G) &&
  negb (inH (r_parameters G)) && negb (inH (r_lambdef G)) && negb (inH (r_lambdef_nocond G)).

Lemma trans_ok q l pl : tr_ok = true -> trans TR q l = Some pl -> plan_ok q pl = true.
Proof.
  unfold tr_ok, trans. intros T X. destruct (assocN q TR) as [tr|] eqn:E; [|discriminate].
  apply assocN_in in E. apply assocL_in in X.
  rewrite forallb_forall in T. specialize (T _ E). cbn [fst snd] in T. rewrite forallb_forall in T. exact (T _ X).
Qed.
Lemma arc_nt_rule q r q' : arcs_ok = true -> arc_nt G q r = Some q' -> rule_of G q' = rule_of G q.
Proof.
  intros A X. destruct (arcs_forall G _ A q _ (arcN_in G _ _ _ X)) as (d & S & K). rewrite (rule_of_st G q d S). apply N.eqb_eq. exact K.
Qed.

Lemma chainR_cons a l : chainR (a :: l) = match l with b :: _ => implb (inH a) (inH b) | [] => true end && chainR l.
Proof. destruct l; [reflexivity|reflexivity]. Qed.
Lemma chainR_app_one l a : l <> [] -> chainR (l ++ [a]) = chainR l && implb (inH (last l 0)) (inH a).
Proof.
  induction l as [|x r IH]; intros NE; [contradiction|]. destruct r as [|y r'].
  - cbn. rewrite andb_true_r. reflexivity.
  - change ((x :: y :: r') ++ [a]) with (x :: ((y :: r') ++ [a])). rewrite chainR_cons, IH by discriminate.
    rewrite (chainR_cons x (y :: r')). change (last (x :: y :: r') 0) with (last (y :: r') 0). cbn [app]. rewrite andb_assoc. reflexivity.
Qed.
Lemma chainR_app a b : chainR (a ++ b) = true -> chainR b = true.
Proof. induction a as [|x r IH]; [intros X; exact X|]. intros X. apply IH. cbn [app] in X. rewrite chainR_cons in X. apply andb_true_iff in X. tauto. Qed.

(* under h s: s is what lies below a frame whose rule is a holder iff h is true (the whole stack: below nothing,
   h = false); the case [] makes the rule of the root frame a holder *)
Fixpoint under (h : bool) (s : list frame) : Prop :=
  match s with
  | [] => h = true
  | fr :: rest => frame_ok fr = true /\ implb h (inH (rule fr)) = true /\ under (inH (rule fr)) rest
  end.
Definition SOK : list frame -> Prop := under false.

Definition confining : Prop :=
    (forall q l pl, trans TR q l = Some pl -> plan_ok q pl = true) /\ (forall q r q', arc_nt G q r = Some q' -> rule_of G q' = rule_of G q) /\
    inH (r_file_input G) = true /\ inH (r_suite G) = true /\ t4.
Lemma confine_ok_confining : confine_ok = true -> confining.
Proof.
  intros X. unfold confine_ok in X.
  apply andb_true_iff in X as [X T3]. apply andb_true_iff in X as [X T2]. apply andb_true_iff in X as [X T1].
  apply andb_true_iff in X as [X SU]. apply andb_true_iff in X as [X FI]. apply andb_true_iff in X as [TK AK].
  apply negb_true_iff in T1, T2, T3.
  split; [intros q l pl; apply trans_ok, TK|split; [intros q r q'; apply arc_nt_rule, AK|]]. unfold t4. repeat split; assumption.
Qed.

Lemma SOK_goto top r q : SOK (top :: r) -> rule_of G q = rule top -> SOK (goto q top :: r).
Proof.
  intros (A & _ & U) E. unfold SOK. cbn [under]. unfold frame_ok in *. change (rule (goto q top)) with (rule_of G q). rewrite E.
  exact (conj A (conj eq_refl U)).
Qed.
Lemma SOK_put top r x : SOK (top :: r) -> fit (rule top) x = true -> SOK (put top x :: r).
Proof.
  intros (A & _ & U) FX. split; [|split; [reflexivity|exact U]].
  rewrite frame_ok_fit in *. change (rule (put top x)) with (rule top). unfold put. cbn [f_nodes]. rewrite forallb_app, A. cbn [forallb]. rewrite FX. reflexivity.
Qed.
Lemma SOK_cut : forall gone h fr r, under h (gone ++ fr :: r) -> forallb frame_ok gone = true /\ SOK (fr :: r).
Proof.
  induction gone as [|x gone IH]; intros h fr r (A & _ & U); [split; [reflexivity|exact (conj A (conj eq_refl U))]|].
  cbn [forallb]. rewrite A. exact (IH _ _ _ U).
Qed.

Lemma convert_leaf_fit p t : fit p (convert_leaf G t) = true.
Proof. unfold convert_leaf, fit, kid_ok. cbn [good node_rule andb]. rewrite andb_true_r. destruct (ty t); try reflexivity. destruct (assoc (ts t) (g_reserved G)); reflexivity. Qed.

(* the frames a plan pushes: plan_ok lists their rules from the top down to the rule of the frame they are pushed on *)
Lemma pushes_ok : forall ch top r, SOK (top :: r) -> chainR (map (rule_of G) (rev ch) ++ [rule top]) = true -> SOK (pushes ch (top :: r)).
Proof.
  induction ch as [|q ch IH]; intros top r S X; [exact S|]. cbn [rev] in X. rewrite map_app in X. cbn [map] in X.
  rewrite chainR_app_one, last_last in X by (intros E; apply app_eq_nil in E as [_ E]; discriminate).
  apply andb_true_iff in X as [X1 X2]. apply (IH (mkFr q []) (top :: r)); [|exact X1].
  destruct S as (A & _ & U). exact (conj eq_refl (conj eq_refl (conj A (conj X2 U)))).
Qed.
Lemma shift_ok tos rest pl : SOK (tos :: rest) -> plan_ok (f_dfa tos) pl = true -> SOK (planned pl tos rest).
Proof.
  intros S P. unfold plan_ok in P. apply andb_true_iff in P as [P1 P2]. apply N.eqb_eq in P1.
  apply pushes_ok; [exact (SOK_goto _ _ _ S P1)|]. change (rule (goto (p_next pl) tos)) with (rule_of G (p_next pl)). rewrite P1. exact P2.
Qed.

Lemma nodes_good (l : list frame) : forallb frame_ok l = true -> goods (flat_map f_nodes l) = true.
Proof.
  induction l as [|fr r IH]; [reflexivity|]. cbn [forallb flat_map]. intros X. apply andb_true_iff in X as [X1 X2].
  unfold goods. rewrite forallb_app. apply andb_true_iff in X1 as [X1 _]. unfold goods in X1. rewrite X1. apply IH. exact X2.
Qed.

Section Tables.
Hypothesis C : confining.

Lemma frame_node_good fr nd p : frame_node G fr = POk nd -> fit p (Node (KRule (rule fr)) (f_nodes fr)) = true -> fit p nd = true.
Proof.
  intros N F. apply frame_node_spec in N as [E|CV]; [|exact (converted_good _ _ _ CV ltac:(apply C) p F)].
  rewrite fit_rule, E in F. cbn [forallb] in F. rewrite andb_true_r in F. apply andb_true_iff in F as [F I]. exact (fit_up _ _ _ I F).
Qed.

Lemma pop_ok s s' : pop G s = POk s' -> SOK s -> SOK s'.
Proof.
  intros X S. destruct (pop_inv _ _ _ X) as (tos & below & rest & nd & -> & N & ->).
  destruct S as (A & _ & AB & IM & U). apply SOK_put; [exact (conj AB (conj eq_refl U))|].
  apply (frame_node_good _ _ _ N). rewrite fit_rule, <- frame_ok_fit, A. exact IM.
Qed.

(* the frame recovery stops at is a holder's *)
Lemma cut_ok s gone below r : SOK s -> cut_at G s gone below r ->
  forallb frame_ok gone = true /\ SOK (below :: r) /\ inH (rule below) = true.
Proof.
  intros S CT. pose proof CT as [E _]. rewrite E in S. destruct (SOK_cut _ _ _ _ S) as [A B]. split; [exact A|split; [exact B|]].
  destruct C as (_ & _ & FI & SU & _). destruct (cut_at_rule _ _ _ _ _ CT) as [->|[X|X]]; [apply B| |]; unfold rule; rewrite X; assumption.
Qed.

Lemma fix_suite_ok s : SOK s -> SOK (fix_suite G s).
Proof. destruct (fix_suite_fixed G s) as [|top r q _ A]; intros S; [exact S|]. apply SOK_goto; [exact S|]. apply C in A. exact A. Qed.

Lemma added_ok t m f p p' : added G TR t m f p p' -> SOK (stack p) -> SOK (stack p').
Proof.
  induction 1 as [f tos rest om ic pl T|m f tos rest om ic s' p' _ _ P _ IH|m f tos rest om ic pl p' _ _ RP _ IH
                 |m f tos rest om ic gone below r n ns s2 om2 ic2 _ CT AN _ IH|f tos rest om ic gone below r _ CT _];
    cbn [stack] in *; intros S.
  - apply C in T. pose proof (shift_ok _ _ _ S T) as S1.
    destruct (add_top_planned (convert_leaf G t) pl tos rest) as (top & r & E & ->). rewrite E in S1.
    apply SOK_put; [exact S1|apply convert_leaf_fit].
  - apply IH. exact (pop_ok _ _ P S).
  - apply IH. destruct (repair_some _ _ _ _ _ RP) as (_ & TN & _). apply C in TN. apply andb_true_iff in TN as [TN _].
    apply SOK_goto; [exact S|apply N.eqb_eq; exact TN].
  - destruct (cut_ok _ _ _ _ S CT) as (GG & SB & HB). apply fix_suite_ok, IH. apply SOK_put; [exact SB|].
    unfold fit, kid_ok. cbn [is_marker node_rule negb orb]. rewrite HB, good_node, !andb_true_r, <- AN. apply nodes_good. rewrite forallb_rev. exact GG.
  - destruct (cut_ok _ _ _ _ S CT) as (_ & SB & HB). apply fix_suite_ok. apply SOK_put; [exact SB|].
    unfold fit, kid_ok. cbn. rewrite HB. reflexivity.
Qed.
End Tables.

Theorem errors_confined_gen : confining -> forall recover start q0 toks t,
  assocN start (g_start G) = Some q0 -> inH (rule_of G q0) = true -> parse G TR recover start toks = POk t -> good t = true.
Proof.
  intros C recover start q0 toks t Q HQ X.
  destruct (parse_inv G TR recover (fun _ => SOK)) with (4 := X) as (root & S & _ & CV).
  - intros u rest m f p p' _. apply (added_ok C).
  - intros u rest s _ S. exact S.
  - intros tos rest s' _. apply (pop_ok C).
  - intros q Q'. rewrite Q in Q'. inversion Q'; subst q. split; [reflexivity|split; [reflexivity|exact HQ]].
  - destruct S as (A & _). rewrite frame_ok_fit in A. unfold rule in A.
    apply (fit_good (rule_of G (f_dfa root))), (converted_good _ _ _ (convert_node_spec _ _ _ _ CV)); [apply C|].
    rewrite fit_rule, A. apply implb_same.
Qed.

Hypothesis OK : confine_ok = true.

Theorem errors_confined : forall recover start q0 toks t,
  assocN start (g_start G) = Some q0 -> inH (rule_of G q0) = true ->
  parse G TR recover start toks = POk t -> good t = true.
Proof. exact (errors_confined_gen (confine_ok_confining OK)). Qed.
End Confine.
Print Assumptions errors_confined.
