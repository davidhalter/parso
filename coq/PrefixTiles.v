From Coq Require Import List NArith Lia.
Import ListNotations.
Require Import Regex Tok TokFacts TokSlices Prefix.
Open Scope N_scope.

(* C09, prefix splitting: whenever split_prefix returns parts, they tile the prefix:
   the concatenation of spacing ++ value over the parts is the prefix.  (For any regex of the shape
   (group 1)(group 2); the final part carries its text in `value`, like the Python PrefixPart.) *)

Definition part_text (pt : part) : str := p_spacing pt ++ p_value pt.
Definition parts_text (l : list part) : str := concat (map part_text l).
Lemma parts_text_app a b : parts_text (a ++ b) = parts_text a ++ parts_text b.
Proof. unfold parts_text. rewrite map_app, concat_app. reflexivity. Qed.
Lemma parts_text_one pt : parts_text [pt] = p_spacing pt ++ p_value pt.
Proof. unfold parts_text. simpl. apply app_nil_r. Qed.

Section PT.
Variable R : re.
Variable types : list (N * N).
Hypothesis shape : shape12 R = true.

Lemma split_loop_tiles : forall fuel p line column start bomf acc parts,
  split_loop R types fuel p line column start bomf acc = POk parts -> start <= len p ->
  parts_text parts = parts_text acc ++ from p start.
Proof.
  induction fuel as [|f IH]; intros p line column start bomf acc parts H SL; [discriminate|]. cbn [split_loop] in H.
  destruct (start =? len p) eqn:E.
  - apply N.eqb_eq in E. inversion H; subst. rewrite parts_text_app, parts_text_one. cbn [p_spacing p_value].
    rewrite from_ge by lia. reflexivity.
  - destruct (rmatch R p start) as [[e cs]|] eqn:M; [|discriminate].
    destruct (shape12_spans _ _ _ _ _ shape M) as (j & G1 & G2 & L1 & L2). rewrite G1, G2 in H.
    destruct (rmatch_le_len _ _ _ _ _ M SL) as [_ EL].
    (* the match cuts what is left of the prefix into spacing, value and the rest *)
    assert (CUT: from p start = sub p start j ++ sub p j e ++ from p e)
      by (rewrite <- (sub_from p j e L2); apply sub_from, L1).
    destruct (sub p j e) as [|c v].
    + destruct (e =? len p) eqn:EE; [|discriminate]. apply N.eqb_eq in EE. inversion H; subst parts.
      rewrite parts_text_app, parts_text_one, CUT, (from_ge p e), !app_nil_r by lia. reflexivity.
    + destruct (assocN c types) as [tc|]; [|discriminate].
      destruct (ends_break (c :: v)); apply IH in H; try exact EL;
        rewrite H, parts_text_app, parts_text_one, CUT, <- !app_assoc; reflexivity.
Qed.

Theorem split_prefix_tiles : forall p line col parts,
  split_prefix R types p line col = POk parts -> parts_text parts = p.
Proof.
  intros p line col parts H. unfold split_prefix in H. apply split_loop_tiles in H; [|lia]. rewrite H. reflexivity.
Qed.
End PT.
Print Assumptions split_prefix_tiles.
