From Coq Require Import List NArith Bool.
Import ListNotations.
Open Scope N_scope.

(* The constructs of Python's `re` that the tokenizer's patterns use, as sre_parse gives them: NotChr c is `[^c]`,
   AnyNoNl `.` without DOTALL, NLook `(?!...)`, AtEnd `$` without MULTILINE (the end, or before a last \n), AtEndStr `\Z`;
   Opt Star Plus are the greedy `?` `*` `+`. *)
Inductive re :=
| Eps | Chr (c:N) | NotChr (c:N) | AnyNoNl
| CSet (neg:bool) (items: list (N*N))
| Cat (a b: re) | Alt (a b : re)
| Opt (a:re) | Star (a:re) | Plus (a:re)
| Group (n:nat) (a: re) | NLook (a: re) | AtEnd | AtEndStr.

Definition caps := list (nat * (N * N)).
Definition res := (N * caps)%type.

Definition in_set (c:N) (items: list (N*N)) : bool :=
  existsb (fun '(lo,hi) => (lo <=? c) && (c <=? hi)) items.

(* Backtracking in continuation-passing style; i is the position of rest in the subject.  In the loops of Star and Plus
   an iteration that consumes nothing (i' = i) ends the loop, as in sre.  An iteration that goes on has consumed a
   character, so the fuel stays above the length of what is left and the branch for O is never taken. *)
Fixpoint m (r:re) (i:N) (rest:list N) (cs:caps)
         (k: N -> list N -> caps -> option res) {struct r} : option res :=
  match r with
  | Eps => k i rest cs
  | Chr c => match rest with x::t => if x =? c then k (i+1) t cs else None | [] => None end
  | NotChr c => match rest with x::t => if x =? c then None else k (i+1) t cs | [] => None end
  | AnyNoNl => match rest with x::t => if x =? 10 then None else k (i+1) t cs | [] => None end
  | CSet neg items => match rest with
        | x::t => if xorb neg (in_set x items) then k (i+1) t cs else None | [] => None end
  | Cat a b => m a i rest cs (fun i' r' c' => m b i' r' c' k)
  | Alt a b => match m a i rest cs k with Some x => Some x | None => m b i rest cs k end
  | Opt a => match m a i rest cs k with Some x => Some x | None => k i rest cs end
  | Star a =>
      (fix loop (fuel:nat) (i:N) (rest:list N) (cs:caps) {struct fuel} : option res :=
         match fuel with
         | O => k i rest cs
         | S f =>
             match m a i rest cs (fun i' r' c' => if i' =? i then None else loop f i' r' c') with
             | Some x => Some x
             | None => k i rest cs
             end
         end) (S (length rest)) i rest cs
  | Plus a =>
      m a i rest cs (fun i0 r0 c0 =>
      (fix loop (fuel:nat) (i:N) (rest:list N) (cs:caps) {struct fuel} : option res :=
         match fuel with
         | O => k i rest cs
         | S f =>
             match m a i rest cs (fun i' r' c' => if i' =? i then None else loop f i' r' c') with
             | Some x => Some x
             | None => k i rest cs
             end
         end) (S (length r0)) i0 r0 c0)
  | Group n a => m a i rest cs (fun i' r' c' => k i' r' ((n,(i,i'))::c'))
  | NLook a => match m a i rest cs (fun i' _ c' => Some (i',c')) with
               | Some _ => None | None => k i rest cs end
  | AtEnd => match rest with [] => k i rest cs | [x] => if x =? 10 then k i rest cs else None | _ => None end
  | AtEndStr => match rest with [] => k i rest cs | _ => None end
  end.

Definition rmatch (r:re) (s:list N) (pos:N) : option res :=
  m r pos (skipn (N.to_nat pos) s) [] (fun i _ c => Some (i,c)).

Lemma m_mono_example : rmatch (Star (Chr 97)) [97;97;98] 0 = Some (2, []).
Proof. vm_compute. reflexivity. Qed.
