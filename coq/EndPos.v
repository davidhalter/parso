From Coq Require Import List NArith Bool Lia.
Import ListNotations.
Require Import Lines.
Open Scope N_scope.

(* C03, end positions: model of Leaf.end_pos (parso/tree.py) - computed from the leaf's value with split_lines - and the
   theorem that it is the position reached by walking the value from the start position, counting exactly
   \n, \r\n and \r as line breaks.  The code calls split_lines without keepends, the model uses split_keep: the number of
   lines is the same and so is the last line, which never carries a line break, and end_pos reads nothing else. *)

Definition len (s : str) : N := N.of_nat (length s).

Definition end_pos (value : str) (line col : N) : N * N :=
  let lines := split_keep value in
  let end_line := line + N.of_nat (length lines) - 1 in
  if line =? end_line then (end_line, col + len (last lines []))
  else (end_line, len (last lines [])).

Fixpoint walk (s : str) (l c : N) (after_cr : bool) : N * N :=
  match s with
  | [] => (l, c)
  | ch :: t =>
    if ch =? 10 then (if after_cr then walk t l c false else walk t (l + 1) 0 false)
    else if ch =? 13 then walk t (l + 1) 0 true
    else walk t l (c + 1) false
  end.

Fixpoint endp (ls : list str) (l c0 : N) : N * N :=
  match ls with
  | [] => (l, c0)
  | x :: r => match r with [] => (l, c0 + len x) | _ :: _ => endp r (l + 1) 0 end
  end.

Lemma endp_cons2 x ls l c0 : ls <> [] -> endp (x :: ls) l c0 = endp ls (l + 1) 0.
Proof. destruct ls; [contradiction|reflexivity]. Qed.

Lemma endp_last x r l c0 :
  endp (x :: r) l c0 = (l + N.of_nat (length r), (match r with [] => c0 | _ => 0 end) + len (last (x :: r) [])).
Proof.
  revert x l c0. induction r as [|y r IH]; intros x l c0; [simpl; rewrite N.add_0_r; reflexivity|].
  rewrite endp_cons2, IH by discriminate. change (last (x :: y :: r) []) with (last (y :: r) []).
  f_equal; [simpl length; lia|destruct r; reflexivity].
Qed.

Lemma walk_cr_skip t l c : (match t with x :: _ => x =? 10 | [] => false end) = false -> walk t l c true = walk t l c false.
Proof. destruct t as [|x t]; [reflexivity|]. simpl. intros H. rewrite H. reflexivity. Qed.

Lemma walk_break c t l col : is_break c = true -> walk (c :: t) l col false = walk (snd (take_break c t)) (l + 1) 0 false.
Proof.
  unfold is_break. intros B. destruct (c =? 10) eqn:E10.
  - rewrite take_break_not13 by (apply N.eqb_eq in E10; subst c; reflexivity). simpl. rewrite E10. reflexivity.
  - apply N.eqb_eq in B. subst c. unfold take_break. destruct t as [|x t']; [reflexivity|].
    change (walk (13 :: x :: t') l col false) with (walk (x :: t') (l + 1) 0 true). cbn [N.eqb Pos.eqb andb].
    destruct (x =? 10) eqn:EX; cbn [snd]; [cbn [walk]; rewrite EX; reflexivity|apply walk_cr_skip, EX].
Qed.

Lemma len_app1 (cur : str) (c : N) : len (cur ++ [c]) = len cur + 1.
Proof. unfold len. rewrite app_length. simpl. lia. Qed.

Lemma endp_cut : forall s cur l c0, endp (cut s cur) l c0 = walk s l (c0 + len cur) false.
Proof.
  induction s as [|c t IHt IHr] using break_ind; intros cur l c0; [reflexivity|]. rewrite cut_eq. destruct (is_break c) eqn:B.
  - rewrite endp_cons2 by apply cut_nonempty. rewrite IHr. symmetry. apply walk_break, B.
  - rewrite IHt. unfold is_break in B. apply orb_false_iff in B as [E10 E13].
    cbn [walk]. rewrite E10, E13, len_app1. f_equal. lia.
Qed.

Theorem end_pos_is_walk : forall value line col, end_pos value line col = walk value line col false.
Proof.
  intros value line col. transitivity (endp (cut value []) line col);
    [|rewrite endp_cut; unfold len; simpl; rewrite N.add_0_r; reflexivity].
  unfold end_pos. rewrite split_keep_spec.
  destruct (cut value []) as [|x [|y r]] eqn:E; [destruct (cut_nonempty _ _ E)| |]; rewrite endp_last.
  - simpl. replace (line + 1 - 1) with line by lia. rewrite N.eqb_refl, N.add_0_r. reflexivity.
  - replace (line =? _) with false by (symmetry; apply N.eqb_neq; simpl length; lia). f_equal. simpl length. lia.
Qed.
Print Assumptions end_pos_is_walk.
