From Coq Require Import List NArith Bool.
Import ListNotations.
Require Import Tok TokTiles Engine EngineStep Tree.
Open Scope N_scope.

(* C01 / C03, engine half: the tree keeps every text-carrying token, in order, with its value, prefix and position.
   Stated for an arbitrary per-leaf measure  g value prefix line column : list X  that is empty on leaves without
   text; `meas t` concatenates it over the leaves of t in order, `mtoks toks` over the tokens (parse_keeps, for token
   lists whose INDENT / DEDENT tokens carry no text).
   Instances: g = prefix ++ value gives get_code (C01, parse_keeps_text: tcode t = emit toks); g = [(value, prefix,
   line, column)] on text-carrying leaves gives "the text-carrying leaves of the tree are exactly the text-carrying
   tokens" (C03, parse_keeps_leaves).
   Error recovery re-homes leaves (error nodes, error leaves) but never drops or reorders them;
   convert_node('suite') drops only children without text (guard PGuard in Engine.v). *)

Section Meas.
Variable XT : Type.
Variable g : str -> str -> N -> N -> list XT.
Hypothesis g_nil : forall v p l c, p ++ v = [] -> g v p l c = [].

Fixpoint meas (t : tree) : list XT :=
  match t with
  | Leaf _ v p l c => g v p l c
  | Node _ cs => (fix go (l : list tree) : list XT := match l with [] => [] | c :: r => meas c ++ go r end) cs
  end.
Definition mtok (t : Token) : list XT := g (ts t) (tpre t) (tline t) (tcol t).
Definition mtoks (l : list Token) : list XT := concat (map mtok l).
Lemma mtoks_nil : mtoks [] = [].
Proof. reflexivity. Qed.

Definition meass (l : list tree) : list XT := concat (map meas l).
Lemma meas_node k cs : meas (Node k cs) = meass cs.
Proof. apply flat_map_concat_map. Qed.
Lemma meass_app a b : meass (a ++ b) = meass a ++ meass b.
Proof. unfold meass. rewrite map_app, concat_app. reflexivity. Qed.
Lemma meass_one x : meass [x] = meas x.
Proof. unfold meass. simpl. apply app_nil_r. Qed.
Lemma meass_cons x l : meass (x :: l) = meas x ++ meass l.
Proof. reflexivity. Qed.

Lemma tcode_nil_meas : forall t, tcode t = [] -> meas t = [].
Proof.
  induction t as [k v p l c|k cs IH] using tree_ind'; intros H.
  - apply g_nil. exact H.
  - rewrite meas_node. simpl in H. revert H. induction IH as [|c r Hc _ IHr]; intros H; [reflexivity|].
    apply app_eq_nil in H as [H1 H2]. rewrite meass_cons, (Hc H1), (IHr H2). reflexivity.
Qed.

Variable G : gram.
Variable TR : list (N * list (label * plan)).

Lemma no_text_nil t : no_text t = true -> meas t = [].
Proof. unfold no_text. intros H. apply tcode_nil_meas. destruct (tcode t); [reflexivity|discriminate]. Qed.
Lemma blank_text l : forallb blank l = true -> meass l = [].
Proof.
  induction l as [|x r IH]; [reflexivity|]. cbn [forallb]. intros H. apply andb_true_iff in H as [B H].
  apply andb_true_iff in B as [B _]. rewrite meass_cons, (no_text_nil _ B), (IH H). reflexivity.
Qed.

Lemma params_text l l' : params l l' -> meass l' = meass l.
Proof.
  induction 1 as [l|a a' b b' _ IHa _ IHb|pc _|r cs cs' _ IH].
  - reflexivity.
  - rewrite !meass_app, IHa, IHb. reflexivity.
  - rewrite meass_one. apply meas_node.
  - rewrite meass_one, meas_node. exact IH.
Qed.

Lemma converted_text r ns t : converted G r ns t -> meas t = meass ns.
Proof.
  intros [|c0 c1 mid last -> B1 B2|ns' [a pcs pcs' b P]|kw rest rest' _ -> P]; rewrite meas_node.
  - reflexivity.
  - apply andb_true_iff in B1 as [B1 _]. rewrite !meass_cons, meass_app, (no_text_nil _ B1), (blank_text _ B2), app_nil_r. reflexivity.
  - rewrite !meass_app, !meass_cons, !meas_node, (params_text _ _ P). reflexivity.
  - rewrite !meass_cons, (params_text _ _ P). reflexivity.
Qed.

Definition frame_code (fr : frame) : list XT := meass (f_nodes fr).
Definition stack_code (s : list frame) : list XT := concat (map frame_code (rev s)).

Lemma stack_code_cons fr s : stack_code (fr :: s) = stack_code s ++ frame_code fr.
Proof. unfold stack_code. simpl. rewrite map_app, concat_app. simpl. rewrite app_nil_r. reflexivity. Qed.
Lemma stack_code_app a b : stack_code (a ++ b) = stack_code b ++ stack_code a.
Proof. unfold stack_code. rewrite rev_app_distr, map_app, concat_app. reflexivity. Qed.
Lemma stack_code_put fr x s : stack_code (put fr x :: s) = stack_code (fr :: s) ++ meas x.
Proof. rewrite !stack_code_cons. unfold frame_code, put. cbn [f_nodes]. rewrite meass_app, meass_one. apply app_assoc. Qed.
Lemma stack_code_goto q fr s : stack_code (goto q fr :: s) = stack_code (fr :: s).
Proof. rewrite !stack_code_cons. reflexivity. Qed.
Lemma stack_code_push ch : forall base, stack_code (pushes ch base) = stack_code base.
Proof. apply pushes_keeps. intros q s. rewrite stack_code_cons. apply app_nil_r. Qed.
(* the nodes of the frames that recovery cuts off, in the order they go into the error node *)
Lemma stack_code_nodes l : stack_code l = meass (flat_map f_nodes (rev l)).
Proof. unfold stack_code. induction (rev l) as [|fr r IH]; [reflexivity|]. cbn [flat_map map concat]. rewrite meass_app, IH. reflexivity. Qed.

Lemma frame_node_text fr nd : frame_node G fr = POk nd -> meas nd = frame_code fr.
Proof. intros C. unfold frame_code. apply frame_node_spec in C as [->|C]; [symmetry; apply meass_one|apply (converted_text _ _ _ C)]. Qed.

Lemma pop_text s s' : pop G s = POk s' -> stack_code s' = stack_code s.
Proof.
  intros H. destruct (pop_inv _ _ _ H) as (tos & below & rest & nd & -> & C & ->).
  rewrite stack_code_put, (stack_code_cons tos), (frame_node_text _ _ C). reflexivity.
Qed.

Lemma fixed_text s s' : fixed G s s' -> stack_code s' = stack_code s.
Proof. intros [|top r q _ _]; [reflexivity|apply stack_code_goto]. Qed.

Lemma added_text t m f p p' : added G TR t m f p p' -> stack_code (stack p') = stack_code (stack p) ++ mtok t.
Proof.
  induction 1 as [f tos rest om ic pl _|m f tos rest om ic s' p' _ _ P _ IH|m f tos rest om ic pl p' _ _ _ _ IH
                 |m f tos rest om ic gone below r n ns s2 om2 ic2 _ [-> _] AN _ IH|f tos rest om ic gone below r _ [-> _] AN];
    cbn [stack] in *.
  - destruct (add_top_planned (convert_leaf G t) pl tos rest) as (top & r & E & ->). rewrite stack_code_put, <- E. unfold planned. rewrite stack_code_push, stack_code_goto. reflexivity.
  - rewrite IH, (pop_text _ _ P). reflexivity.
  - rewrite IH, stack_code_goto. reflexivity.
  - rewrite (fixed_text _ _ (fix_suite_fixed G s2)), IH, stack_code_put, stack_code_app, meas_node, <- AN, (stack_code_nodes gone). reflexivity.
  - rewrite (fixed_text _ _ (fix_suite_fixed G _)), stack_code_put, stack_code_app, (stack_code_nodes gone), AN, app_nil_r. reflexivity.
Qed.

Definition zero_width_blocks (toks : list Token) : Prop :=
  forall t, In t toks -> (ty t = INDENT \/ ty t = DEDENT) -> emit1 t = [].

Theorem parse_keeps : forall recover start toks t,
  parse G TR recover start toks = POk t -> zero_width_blocks toks -> meas t = mtoks toks.
Proof.
  intros recover start toks t H Z.
  (* what the stack holds and what is still to come make up the input *)
  destruct (parse_inv G TR recover (fun rest s => zero_width_blocks rest /\ stack_code s ++ mtoks rest = mtoks toks)) with (4 := H)
    as (root & [_ E] & _ & CV).
  - intros u rest m f p p' _ R [Z' E]. split; [intros x I; apply Z'; right; exact I|].
    rewrite (added_text _ _ _ _ _ R), <- app_assoc. exact E.
  - (* a DEDENT swallowed by _recovery_tokenize: it carries no text *)
    intros u rest s TD [Z' E]. split; [intros x I; apply Z'; right; exact I|]. rewrite <- E. change (mtoks (u :: rest)) with (mtok u ++ mtoks rest).
    unfold mtok. rewrite (g_nil _ _ _ _ (Z' u (or_introl eq_refl) (or_intror TD))). reflexivity.
  - intros tos rest s' _ P [Z' E]. split; [exact Z'|]. rewrite (pop_text _ _ P). exact E.
  - intros q0 _. split; [exact Z|reflexivity].
  - rewrite (converted_text _ _ _ (convert_node_spec _ _ _ _ CV)), <- E, mtoks_nil, app_nil_r, stack_code_cons. reflexivity.
Qed.
End Meas.

Definition tcodes (l : list tree) : str := concat (map tcode l).
Lemma tcode_node k cs : tcode (Node k cs) = tcodes cs.
Proof. apply flat_map_concat_map. Qed.
Definition g_code (v p : str) (l c : N) : str := p ++ v.
Lemma meas_code : forall t, meas N g_code t = tcode t.
Proof.
  induction t as [k v p l c|k cs IH] using tree_ind'; [reflexivity|]. simpl. induction IH as [|c r Hc _ IHr]; [reflexivity|]. rewrite Hc, IHr. reflexivity.
Qed.
Lemma mtoks_code toks : mtoks N g_code toks = emit toks.
Proof. reflexivity. Qed.

Theorem parse_keeps_text : forall G TR recover start toks t,
  parse G TR recover start toks = POk t -> zero_width_blocks toks -> tcode t = emit toks.
Proof.
  intros G TR recover start toks t H Z. rewrite <- meas_code, <- mtoks_code.
  eapply parse_keeps; [intros v p l c E; exact E|exact H|exact Z].
Qed.
Print Assumptions parse_keeps_text.

Record linfo := mkLI { li_value : str; li_prefix : str; li_line : N; li_col : N }.
Definition g_info (v p : str) (l c : N) : list linfo := match p ++ v with [] => [] | _ => [mkLI v p l c] end.
Definition text_leaves (t : tree) : list linfo := meas linfo g_info t.
Definition text_tokens (toks : list Token) : list linfo := mtoks linfo g_info toks.

Theorem parse_keeps_leaves : forall G TR recover start toks t,
  parse G TR recover start toks = POk t -> zero_width_blocks toks -> text_leaves t = text_tokens toks.
Proof.
  intros G TR recover start toks t H Z. unfold text_leaves, text_tokens.
  eapply parse_keeps; [intros v p l c E; unfold g_info; rewrite E; reflexivity|exact H|exact Z].
Qed.
Print Assumptions parse_keeps_leaves.
