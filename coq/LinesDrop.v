(* split_lines(keepends=False) = re.split(r'\n|\r\n|\r', s): the same lines as keepends=True without their line ends *)
From Coq Require Import List NArith Bool.
Import ListNotations.
Require Import Lines.
Local Open Scope N_scope.

(* re.split on the alternation \n | \r\n | \r (every match is non-empty, tried in that order at each position) *)
Fixpoint split_drop (s cur : str) : list str :=
  match s with
  | [] => [cur]
  | c :: t =>
    if c =? 10 then cur :: split_drop t []
    else if c =? 13 then
      match t with
      | x :: t' => if x =? 10 then cur :: split_drop t' [] else cur :: split_drop t []
      | [] => cur :: split_drop t []
      end
    else split_drop t (cur ++ [c])
  end.

Definition split_plain (s : str) : list str := split_drop s [].

Definition line_end (e : str) : Prop := e = [10] \/ e = [13] \/ e = [13; 10].

Inductive lines_rel : list str -> list str -> Prop :=
| lr_last d : lines_rel [d] [d]
| lr_cons d e ds ks : line_end e -> lines_rel ds ks -> lines_rel (d :: ds) ((d ++ e) :: ks).

Definition no_break (l : str) : Prop := forallb (fun c => negb (is_break c)) l = true.

Lemma no_break_app l c : no_break l -> is_break c = false -> no_break (l ++ [c]).
Proof. unfold no_break. intros H Hc. rewrite forallb_app, H. simpl. rewrite Hc. reflexivity. Qed.

(* split_drop in the form of Lines.cut_eq *)
Lemma split_drop_eq c t cur :
  split_drop (c :: t) cur =
  if is_break c then cur :: split_drop (snd (take_break c t)) [] else split_drop t (cur ++ [c]).
Proof.
  cbn [split_drop]. unfold is_break, take_break.
  destruct (c =? 10) eqn:E10; [apply N.eqb_eq in E10; subst c; destruct t; reflexivity|].
  destruct (c =? 13); [|reflexivity]. destruct t as [|x t']; [reflexivity|].
  cbn [orb andb]. destruct (x =? 10); reflexivity.
Qed.

Lemma take_break_line_end c t : is_break c = true -> line_end (fst (take_break c t)).
Proof.
  unfold is_break, take_break, line_end. intros B.
  apply orb_true_iff in B as [B|B]; apply N.eqb_eq in B; subst c.
  - destruct t; auto.
  - destruct t as [|x t']; [auto|]. cbn [N.eqb Pos.eqb andb].
    destruct (x =? 10) eqn:E; [apply N.eqb_eq in E; subst x|]; auto.
Qed.

Lemma drop_rel s : forall cur, lines_rel (split_drop s cur) (cut s cur).
Proof.
  induction s as [|c t IHt IHr] using break_ind; intros cur; [rewrite cut_nil; constructor|].
  rewrite split_drop_eq, cut_eq. destruct (is_break c) eqn:B; [|apply IHt].
  apply lr_cons; [apply take_break_line_end; exact B|apply IHr].
Qed.

Lemma drop_no_break s : forall cur, no_break cur -> Forall no_break (split_drop s cur).
Proof.
  induction s as [|c t IHt IHr] using break_ind; intros cur Hc; [constructor; [exact Hc|constructor]|].
  rewrite split_drop_eq. destruct (is_break c) eqn:B.
  - constructor; [exact Hc|apply IHr; reflexivity].
  - apply IHt, no_break_app; assumption.
Qed.

Lemma lines_rel_length a b : lines_rel a b -> length a = length b.
Proof. induction 1; simpl; congruence. Qed.

Theorem split_plain_spec s : lines_rel (split_plain s) (split_keep s).
Proof. rewrite split_keep_spec. apply drop_rel. Qed.

Theorem split_plain_same_count s : length (split_plain s) = length (split_keep s).
Proof. apply lines_rel_length, split_plain_spec. Qed.

Theorem split_plain_no_break s : Forall no_break (split_plain s).
Proof. apply drop_no_break. reflexivity. Qed.

Theorem split_plain_nonempty s : split_plain s <> [].
Proof. destruct (split_plain_spec s); discriminate. Qed.

(* non-vacuity: a text with all three line ends and a form feed *)
Example split_plain_example :
  split_plain [97; 10; 98; 13; 10; 12; 99; 13; 100] = [[97]; [98]; [12; 99]; [100]]
  /\ split_keep [97; 10; 98; 13; 10; 12; 99; 13; 100] = [[97; 10]; [98; 13; 10]; [12; 99; 13]; [100]].
Proof. split; vm_compute; reflexivity. Qed.
Print Assumptions split_plain_spec.
