From Coq Require Import List Arith Lia.
Import ListNotations.

(* Crash-outcome model of the on-disk cache entry (parso/cache.py: _load_from_file_system,
   _save_to_file_system, clear_inactive_cache).  The unpickler is an ORACLE: nothing is
   assumed about what it does on bytes that are not an intact pickle, it may fail or
   return any entry (a bit flip can still unpickle). *)

Inductive bytes :=
| Intact (v ct : nat)            (* the pickle of an entry for content version v recorded at time ct *)
| Torn (v ct k : nat)            (* first k bytes of it *)
| Garbage (g : nat).

Inductive unp := UOk (v ct : nat) | UFail.

Inductive disk := Absent | File (b : bytes) (pm : nat).      (* pm = mtime of the pickle file *)

Inductive outcome := Hit (v : nat) | Miss | Raise.

Section Crash.
Variable unpickle : bytes -> unp.
Hypothesis unpickle_intact : forall v ct, unpickle (Intact v ct) = UOk v ct.

(* catches = true: any failure of the unpickler is a miss (the `except Exception` of _load_from_file_system);
   catches = false: only FileNotFoundError is a miss *)
Definition load (catches : bool) (d : disk) (p_time : nat) : outcome :=
  match d with
  | Absent => Miss
  | File b pm =>
    if pm <? p_time then Miss
    else match unpickle b with
         | UOk v ct => if ct <? p_time then Miss else Hit v
         | UFail => if catches then Miss else Raise
         end
  end.

Definition save (v ct now : nat) : disk := File (Intact v ct) now.

Definition parse_cached (catches : bool) (d : disk) (cur p_time now : nat) : option (nat * disk) :=
  match load catches d p_time with
  | Hit v => Some (v, d)
  | Miss => Some (cur, save cur p_time now)
  | Raise => None
  end.

Theorem load_total : forall d p, load true d p <> Raise.
Proof.
  intros d p. unfold load. destruct d as [|b pm]; [discriminate|].
  destruct (pm <? p); [discriminate|]. destruct (unpickle b) as [v ct|]; [|discriminate].
  destruct (ct <? p); discriminate.
Qed.

Theorem parse_total : forall d cur p now, exists v d', parse_cached true d cur p now = Some (v, d').
Proof.
  intros d cur p now. unfold parse_cached. pose proof (load_total d p) as T.
  destruct (load true d p); [eexists; eexists; reflexivity|eexists; eexists; reflexivity|contradiction].
Qed.

Theorem self_repair : forall d cur p now, p <= now ->
  load true d p = Miss ->
  exists d', parse_cached true d cur p now = Some (cur, d') /\ load true d' p = Hit cur.
Proof.
  intros d cur p now Hn HM. unfold parse_cached. rewrite HM. eexists. split; [reflexivity|].
  unfold save, load. rewrite unpickle_intact.
  destruct (now <? p) eqn:E; [apply Nat.ltb_lt in E; lia|].
  rewrite Nat.ltb_irrefl. reflexivity.
Qed.

Theorem hit_is_recorded : forall c d p v, load c d p = Hit v ->
  exists b pm ct, d = File b pm /\ unpickle b = UOk v ct /\ p <= pm /\ p <= ct.
Proof.
  intros c d p v H. unfold load in H. destruct d as [|b pm]; [discriminate|].
  destruct (pm <? p) eqn:E1; [discriminate|]. destruct (unpickle b) as [v' ct|] eqn:U; [|destruct c; discriminate].
  destruct (ct <? p) eqn:E2; [discriminate|]. inversion H; subst.
  apply Nat.ltb_ge in E1. apply Nat.ltb_ge in E2. exists b, pm, ct. auto.
Qed.

Theorem old_code_raises : forall v ct k pm p, unpickle (Torn v ct k) = UFail -> p <= pm ->
  load false (File (Torn v ct k) pm) p = Raise.
Proof.
  intros v ct k pm p U L. unfold load. destruct (pm <? p) eqn:E; [apply Nat.ltb_lt in E; lia|].
  rewrite U. reflexivity.
Qed.
End Crash.

Record entry := mkE { e_key : nat; e_atime : nat }.
Definition clear_inactive (survival now : nat) (es : list entry) : list entry :=
  filter (fun e => negb (e_atime e + survival <=? now)) es.

Theorem cleanup_keeps_recent : forall survival now es e,
  In e es -> now < e_atime e + survival -> In e (clear_inactive survival now es).
Proof.
  intros s now es e Hin Hr. unfold clear_inactive. apply filter_In. split; [exact Hin|].
  destruct (e_atime e + s <=? now) eqn:E; [apply Nat.leb_le in E; lia|reflexivity].
Qed.
Theorem cleanup_only_removes : forall survival now es e, In e (clear_inactive survival now es) -> In e es.
Proof. intros s now es e H. unfold clear_inactive in H. apply filter_In in H. tauto. Qed.

(* a concrete unpickler that fails on everything but intact bytes: the hypotheses are satisfiable, and without the
   catch a torn file makes load raise *)
Definition strict_unpickle (b : bytes) : unp := match b with Intact v ct => UOk v ct | _ => UFail end.
Example old_code_refuted : load strict_unpickle false (File (Torn 0 5 3) 9) 5 = Raise.
Proof. reflexivity. Qed.
Example repaired_code_misses : load strict_unpickle true (File (Torn 0 5 3) 9) 5 = Miss.
Proof. reflexivity. Qed.
