From Coq Require Import List NArith ZArith Bool Lia.
Import ListNotations.
Require Import Tok TokFacts TokSpec TokTiles.
Open Scope N_scope.

(* C03 / C09: token positions are true.
   `lc o (l, c)` is an arbitrary relation "text offset o is at line l, column c"; the per-line lemmas only use that
   it holds along the current line.  wfp o toks: walking toks from text offset o, every token that is not a zero-width
   block token (INDENT / DEDENT / ERROR_DEDENT) starts - after its prefix - at the offset its (line, column) names. *)

Lemma len_from_le s a : a <= len s -> len (from s a) + a = len s.
Proof. intros H. rewrite len_from. lia. Qed.

Definition blockish (t : Token) : bool := match ty t with INDENT | DEDENT | ERROR_DEDENT => true | _ => false end.

Section Pos.
Variable lc : N -> N * N -> Prop.

Fixpoint wfp (o : N) (toks : list Token) : Prop :=
  match toks with
  | [] => True
  | t :: r => (if blockish t then emit1 t = [] else lc (o + len (tpre t)) (tline t, tcol t)) /\ wfp (o + len (emit1 t)) r
  end.

Lemma wfp_app : forall a o b, wfp o (a ++ b) <-> wfp o a /\ wfp (o + len (emit a)) b.
Proof.
  induction a as [|t a IH]; intros o b; simpl.
  - rewrite emit_nil, len_nil, N.add_0_r. tauto.
  - rewrite IH, emit_cons, len_app, N.add_assoc. tauto.
Qed.
Lemma wfp_one o t : wfp o [t] <-> (if blockish t then emit1 t = [] else lc (o + len (tpre t)) (tline t, tcol t)).
Proof. simpl. tauto. Qed.

Lemma blks_wfp p h bl h' : blks p h bl h' -> forall o, wfp o bl.
Proof.
  induction 1 as [h|h bl h' _ IH|h bl h' _ IH|h bl h' l c _ IH]; intros o; [exact I|split; [reflexivity|change (wfp (o + 0) bl); rewrite N.add_0_r; apply IH] ..].
Qed.

Lemma place_wfp sl (ps : list (ttype * str)) : Forall (fun tp => ordinary (fst tp) = true) ps -> forall col pfx o,
  (forall j, j <= len (concat (map snd ps)) -> lc (o + len pfx + j) (sl, col + j)) -> wfp o (place sl col pfx ps).
Proof.
  induction 1 as [|[t p] r O _ IH]; intros col pfx o H; [exact I|]. cbn [map snd concat] in H. rewrite len_app in H. cbn [place wfp]. split.
  - replace (blockish _) with false by (cbn in O; destruct t; (discriminate || reflexivity)). cbn [tpre tline tcol].
    specialize (H 0 (N.le_0_l _)). rewrite !N.add_0_r in H. exact H.
  - unfold emit1 at 1. cbn [tpre ts]. apply IH. intros j J.
    replace (o + len (pfx ++ p) + len [] + j) with (o + len pfx + (len p + j)) by (rewrite len_app, len_nil; lia).
    replace (col + len p + j) with (col + (len p + j)) by lia. apply H. lia.
Qed.

Variable C : coll.
Variable isident : str -> bool.
Variable isspace : N -> bool.
Hypothesis shape : shape12 (pseudo C) = true.

(* the two positions still owed at offset o: the start of a string that continues over lines, and the start of the
   pending text of the innermost f-string *)
Definition PInv (o : N) (s : st) : Prop :=
  (contstr s <> [] -> lc (o + len (prefix s)) (contstr_start s)) /\
  (forall tos, last_opt (fstack s) = Some tos -> prev_lines tos <> [] ->
     lc (o + len (addp s) + len (fpend (removelast (fstack s)))) (last_start tos)).

Lemma PInv_quiet o s : contstr s = [] -> fpend (fstack s) = [] -> PInv o s.
Proof.
  intros c f. split; [intros X; rewrite c in X; contradiction|]. intros tos L P. rewrite (fpend_nil_last _ _ f L) in P. contradiction.
Qed.
Section Line.
Variable line : str.
Variables B ln : N.
Hypothesis Hline : forall c, c <= len line -> lc (B + c) (ln, c).

Ltac lens E := apply (f_equal len) in E; rewrite ?len_app, ?len_from in E.

Lemma fround_pos s pos s1 toks oe p o : fround line s pos s1 toks oe p -> contstr s = [] -> pos <= len line ->
  lnum s = ln -> o + len (pend s) = B + pos -> PInv o s ->
  wfp o toks /\ PInv (o + len (emit toks)) s1 /\ p <= len line.
Proof.
  intros R CS PL LN AB PI. unfold pend in AB. rewrite CS in AB.
  (* the text pending on the top frame starts, or would start, at an offset that is located *)
  assert (TS: forall tos, last_opt (fstack s) = Some tos ->
            lc (o + len (addp s) + len (fpend (removelast (fstack s)))) (text_start tos (lnum s, pos))).
  { intros tos L. rewrite (fpend_last _ _ L), !len_app in AB. unfold text_start. destruct (prev_lines tos) as [|y pl] eqn:PT.
    - rewrite len_nil in AB. rewrite LN. replace (o + _ + _) with (B + pos) by lia. apply Hline. exact PL.
    - apply PI; [exact L|rewrite PT; discriminate]. }
  destruct R as [|tos tos' s0 L F P ST|tos tos' s0 L F _ P A G|ws q fs F F0 F1]; rewrite ?emit_nil, ?len_nil, ?N.add_0_r.
  - exact (conj I (conj PI PL)).
  - lens F. split; [exact I|split; [|lia]].
    split; [cbn [contstr upd_f]; intros X; rewrite CS in X; contradiction|].
    cbn [fstack upd_f addp]. unfold upd_top. intros t Lt Pt. rewrite last_opt_set_last in Lt. inversion Lt; subst t.
    rewrite removelast_set_last, (ST Pt). exact (TS _ L).
  - lens F. split; [|split; [|lia]].
    + apply wfp_one. cbn [blockish ty tpre tline tcol]. specialize (TS _ L). rewrite A, G, !len_nil, !N.add_0_r in TS.
      rewrite len_nil, N.add_0_r. destruct (text_start tos (lnum s, pos)). exact TS.
    + apply PInv_quiet; [exact CS|]. cbn [fstack upd_f]. rewrite fpend_upd_top, G, P. reflexivity.
  - lens F. rewrite F0, app_nil_r in AB. split; [|split; [apply PInv_quiet; [exact CS|exact F1]|lia]].
    apply wfp_one. cbn [blockish ty tpre tline tcol]. rewrite len_app, LN.
    replace (o + (len (addp s) + len ws)) with (B + (pos + len ws)) by lia. apply Hline. lia.
Qed.

Lemma round_pos pfx start h s' toks le o :
  round line ln pfx start h s' toks le -> fpend (fstack s') = [] ->
  (start <= len line -> o + len pfx = B + start) -> (forall q, le = Continue q -> q <= len line) ->
  wfp o toks /\ PInv (o + len (emit toks)) s'.
Proof.
  intros R F OFF QB.
  destruct R as [s' bl ps q X [_ O] FR LT c _|s' le _ c _|s' bl X c NE cs p _].
  - split; [|apply PInv_quiet; assumption]. specialize (QB q eq_refl). lens FR.
    apply wfp_app. split; [exact (blks_wfp _ _ _ _ X o)|]. apply (place_wfp _ _ O). intros j J.
    rewrite (blks_emit _ _ _ _ X), len_nil, N.add_0_r, OFF by lia. rewrite <- N.add_assoc. apply Hline. lia.
  - split; [exact I|apply PInv_quiet; assumption].
  - assert (SL: start < len line) by (destruct (from line start) eqn:E; [contradiction|]; lens E; rewrite len_cons in E; lia).
    split; [exact (blks_wfp _ _ _ _ X o)|]. split.
    + intros _. rewrite cs, p, (blks_emit _ _ _ _ X), len_nil, N.add_0_r, OFF by lia. apply Hline. lia.
    + intros tos L P. rewrite (fpend_nil_last _ _ F L) in P. contradiction.
Qed.

(* inside line ln, which starts at offset B: the scan is at column pos (Cur), or past the end of the line (Fin), and what
   has been emitted up to offset o plus what is pending reaches exactly there *)
Definition Cur (o : N) (s : st) (pos : N) : Prop :=
  contstr s = [] /\ max_ s = len line /\ pos <= len line /\ lnum s = ln /\ o + len (pend s) = B + pos /\ PInv o s.
Definition Fin (o : N) (s : st) : Prop :=
  max_ s = len line /\ lnum s = ln /\ o + len (pend s) = B + len line /\ PInv o s.

Lemma body_pos : forall s pos s' toks le o,
  body C isident isspace s line pos = Ok (s', toks, le) -> Cur o s pos ->
  wfp o toks /\ match le with Continue q => Cur (o + len (emit toks)) s' q | Break => Fin (o + len (emit toks)) s' end.
Proof.
  intros s pos s' toks le o H (CS & MX & PL & LN & AB & PI).
  assert (X: wfp o toks /\ PInv (o + len (emit toks)) s' /\ lnum s' = ln /\ (forall q, le = Continue q -> q <= len line)).
  { destruct (body_round _ _ _ _ _ _ _ _ _ H CS) as (s1 & toks1 & oe & p & FS & R).
    destruct (fround_pos _ _ _ _ _ _ _ FS CS PL LN AB PI) as (W1 & P1 & B1).
    destruct (fround_frame _ _ _ _ _ _ _ FS) as (C1 & _ & L1 & _). rewrite CS in C1. rewrite LN in L1.
    pose proof (fround_tiles _ _ _ _ _ _ _ FS CS) as E1. pose proof (fround_next _ _ _ _ _ _ _ FS) as NX.
    destruct oe as [e|].
    { destruct R as (-> & -> & ->). split; [exact W1|split; [exact P1|split; [exact L1|intros p' ->; rewrite NX; exact B1]]]. }
    destruct R as (G9 & ws & start & lim & (toksB & -> & R & _ & L & F & QB) & SH). destruct (SH shape) as (F1 & LB). specialize (QB (LB B1)).
    unfold pend in E1 at 1. rewrite C1, G9, app_nil_r in E1. lens E1. rewrite L1 in R.
    destruct (round_pos _ _ _ _ _ _ (o + len (emit toks1)) R F) as (W & P); [|exact QB|].
    - intros SL. lens F1. rewrite len_app. lia.
    - split; [apply wfp_app; split; assumption|split; [rewrite emit_app, len_app, N.add_assoc; exact P|split; [rewrite L; exact L1|exact QB]]]. }
  destruct X as (W & P & L & QB). split; [exact W|].
  (* the offsets follow from the tiling of the round *)
  destruct (body_tiles _ _ _ shape _ _ _ _ _ _ H CS MX) as (E & M & _). lens E. unfold Cur, Fin. rewrite M.
  destruct le as [q|]; cbn [tail_of] in E; rewrite ?len_from, ?len_nil in E.
  - specialize (QB q eq_refl). split; [exact (body_cont _ _ _ _ _ _ _ _ _ H CS ltac:(discriminate))|].
    split; [exact MX|split; [exact QB|split; [exact L|split; [lia|exact P]]]].
  - split; [exact MX|split; [exact L|split; [lia|exact P]]].
Qed.

Lemma scan_pos : forall fuel s pos acc s' out o0,
  scan C isident isspace fuel s line pos acc = Ok (s', out) -> wfp o0 acc -> Cur (o0 + len (emit acc)) s pos ->
  wfp o0 out /\ Fin (o0 + len (emit out)) s'.
Proof.
  induction fuel as [|f IH]; intros s pos acc s' out o0 H W CU; [discriminate|]. cbn [Tok.scan] in H.
  destruct (pos <? max_ s) eqn:LT.
  - destruct (body C isident isspace s line pos) as [[[s1 toks] le]|] eqn:BD; [|discriminate].
    destruct (body_pos _ _ _ _ _ _ BD CU) as (W1 & NX). rewrite <- N.add_assoc, <- len_app, <- emit_app in NX.
    assert (WA: wfp o0 (acc ++ toks)) by (apply wfp_app; split; assumption).
    destruct le as [pos'|]; [exact (IH _ _ _ _ _ _ H WA NX)|]. inversion H; subst s' out. split; assumption.
  - inversion H; subst s' out. apply N.ltb_ge in LT. destruct CU as (_ & MX & PL & LN & AB & PI).
    split; [exact W|split; [exact MX|split; [exact LN|split; [|exact PI]]]]. rewrite AB. f_equal. lia.
Qed.

Lemma line_core_pos : forall sB s' toks o,
  line_core C isident isspace sB line 0 = Ok (s', toks) -> CInv sB -> max_ sB = len line -> lnum sB = ln ->
  o + len (pend sB) = B -> PInv o sB -> wfp o toks /\ Fin (o + len (emit toks)) s'.
Proof.
  intros sB s' toks o H CI MX LN AB PI.
  destruct (line_core_entry _ _ _ _ _ _ _ _ H) as [fuel CS SC|fuel e NE EL SC|NE -> ->].
  - apply (scan_pos _ _ _ [] _ _ o SC I). rewrite emit_nil, len_nil, N.add_0_r.
    split; [exact CS|split; [exact MX|split; [lia|split; [exact LN|split; [lia|exact PI]]]]].
  - destruct (CI NE) as [A0 F0]. unfold pend in AB. rewrite F0, app_nil_r in AB.
    apply (scan_pos _ _ _ _ _ _ o SC).
    + apply wfp_one. cbn [blockish ty tpre tline tcol]. rewrite <- surjective_pairing. exact (proj1 PI NE).
    + split; [reflexivity|]. split; [exact MX|]. split; [exact EL|]. split; [exact LN|]. split; [|apply PInv_quiet; [reflexivity|exact F0]].
      rewrite emit_one. unfold pend. cbn [tpre ts contstr with_contstr addp fstack]. rewrite A0, F0, !len_app, len_upto, len_nil.
      destruct (contstr sB); [contradiction|]. rewrite len_app in AB. lia.
  - destruct (CI NE) as [A0 F0]. unfold pend in AB. rewrite F0, app_nil_r in AB. rewrite emit_nil, len_nil, N.add_0_r.
    split; [exact I|split; [exact MX|split; [exact LN|split; [|split; [intros _; exact (proj1 PI NE)|exact (proj2 PI)]]]]].
    unfold pend. cbn [contstr with_contstr prefix fstack]. rewrite F0, app_nil_r. destruct (contstr sB); [contradiction|].
    cbn [app]. rewrite ?len_app, ?len_cons, ?len_app in *. lia.
Qed.
End Line.
End Pos.

Section Global.
Variable C : coll.
Variable isident : str -> bool.
Variable isspace : N -> bool.
Hypothesis shape : shape12 (pseudo C) = true.
Variable lines : list str.
Variable sl : N.
Variable is_first : bool.

Definition has_bom : bool := is_first && match lines with (c :: _) :: _ => c =? bom | _ => false end.
(* width of the byte order mark in front of line i; offset at which line i starts *)
Definition bw (i : nat) : N := match i with O => if has_bom then 1 else 0 | S _ => 0 end.
Definition before (i : nat) : N := len (concat (firstn i lines)).
(* lines are numbered from sl, columns counted after a leading BOM.  The column may be the length of the line: the end of
   a line and the start of the next are both locations of one offset. *)
Definition loc (o : N) (p : N * N) : Prop :=
  exists i l, nth_error lines i = Some l /\ fst p = sl + N.of_nat i /\ o = before i + bw i + snd p /\ bw i + snd p <= len l.

Lemma firstn_S_nth {A} : forall (l : list A) i x, nth_error l i = Some x -> firstn (S i) l = firstn i l ++ [x].
Proof.
  induction l as [|a l IH]; intros i x H; [destruct i; discriminate|].
  destruct i as [|i]; simpl in H; [inversion H; reflexivity|]. cbn [firstn]. rewrite (IH i x H) at 1. reflexivity.
Qed.
Lemma before_S i l : nth_error lines i = Some l -> before (S i) = before i + len l.
Proof. intros H. unfold before. rewrite (firstn_S_nth _ _ _ H), concat_app, len_app. simpl. rewrite app_nil_r. reflexivity. Qed.
Lemma before_0 : before 0 = 0.
Proof. reflexivity. Qed.

Notation PInvL := (PInv loc).
Notation wfpL := (wfp loc).

Lemma bw_bom i l first : nth_error lines i = Some l -> first = is_first && Nat.eqb i 0 -> bw i = len (bom_of first l).
Proof.
  intros NT ->. unfold bw, has_bom, bom_of. destruct i as [|i].
  - destruct lines as [|l0 r]; [discriminate|]. inversion NT; subst. rewrite andb_true_r.
    destruct l as [|c t]; [rewrite andb_false_r; reflexivity|]. destruct (is_first && (c =? bom)); reflexivity.
  - rewrite andb_false_r. destruct l; reflexivity.
Qed.

(* the last clause: the end marker may have to stand at the end of the last line *)
Definition LInv (i : nat) (o : N) (s : st) : Prop :=
  CInv s /\ lnum s + 1 = sl + N.of_nat i /\ o + len (pend s) = before i /\ PInvL o s /\ (i <> O -> loc (before i) (lnum s, max_ s)).

Lemma line_step_pos : forall i l s first s' toks o,
  nth_error lines i = Some l -> first = is_first && Nat.eqb i 0 ->
  line_step C isident isspace s l first 0 = Ok (s', toks) ->
  at_first first s -> LInv i o s ->
  wfpL o toks /\ LInv (S i) (o + len (emit toks)) s'.
Proof.
  intros i l s first s' toks o NT FE H FI (CI & LN & AB & PI & _).
  destruct (line_step_tiles _ _ _ shape _ _ _ _ _ H CI FI) as (_ & CI').
  unfold LInv. rewrite (before_S _ _ NT). rewrite line_step_core0 in H. cbv zeta in H.
  pose proof (bw_bom _ _ _ NT FE) as BW. destruct (bom_of_split first l) as (L & _).
  set (w := bom_of first l) in *. set (line := from l (len w)) in *.
  apply (f_equal len) in L. rewrite len_app in L.
  assert (Hline: forall c, c <= len line -> loc (before i + len w + c) (sl + N.of_nat i, c)).
  { intros c Hc. exists i, l. cbn [fst snd]. rewrite BW. repeat split; [exact NT|lia]. }
  destruct (line_start_pend s l first (lnum s + 1) (len line) CI FI) as (CIB & PB & Q). fold w in CIB, PB, Q.
  match type of H with line_core _ _ _ ?x _ _ = _ => set (sB := x) in * end.
  assert (ABB: o + len (pend sB) = before i + len w) by (rewrite PB, len_app; lia).
  assert (PIB: PInvL o sB) by (destruct Q as [W|[F1 F3]]; [unfold sB; rewrite W; exact PI|apply PInv_quiet; assumption]).
  destruct (line_core_pos loc C isident isspace shape line (before i + len w) (sl + N.of_nat i) Hline _ _ _ _ H CIB eq_refl LN ABB PIB) as (W & M & LN' & A & P).
  split; [exact W|split; [exact CI'|split; [lia|split; [lia|split; [exact P|intros _]]]]].
  rewrite LN', M. replace (before i + len l) with (before i + len w + len line) by lia. apply Hline. lia.
Qed.

Lemma skipn_cons_nth {A} : forall (l : list A) i x r, skipn i l = x :: r -> nth_error l i = Some x /\ skipn (S i) l = r.
Proof.
  induction l as [|a l IH]; intros i x r H; [destruct i; discriminate|].
  destruct i as [|i]; simpl in H; [inversion H; split; reflexivity|]. apply IH in H. exact H.
Qed.

Lemma lines_loop_pos : forall rest i s first acc s' out,
  skipn i lines = rest -> first = is_first && Nat.eqb i 0 ->
  lines_loop C isident isspace s rest first 0 acc = Ok (s', out) ->
  at_first first s -> wfpL 0 acc -> LInv i (len (emit acc)) s ->
  wfpL 0 out /\ LInv (i + length rest) (len (emit out)) s'.
Proof.
  induction rest as [|l rest IH]; intros i s first acc s' out SK FE H FI W LI; cbn [Tok.lines_loop] in H.
  - inversion H; subst s' out. rewrite Nat.add_0_r. split; assumption.
  - destruct (skipn_cons_nth _ _ _ _ SK) as [NT SK'].
    destruct (line_step C isident isspace s l first 0) as [[s1 toks]|] eqn:LS; [|discriminate].
    destruct (line_step_pos _ _ _ _ _ _ _ NT FE LS FI LI) as (W1 & LI1).
    cbn [length]. rewrite Nat.add_succ_r. rewrite <- len_app, <- emit_app in LI1.
    apply (IH (S i) _ _ _ _ _ SK' ltac:(rewrite andb_false_r; reflexivity) H ltac:(discriminate)); [|exact LI1].
    apply wfp_app. split; [exact W|rewrite N.add_0_l; exact W1].
Qed.

Lemma flush_pos s o : CInv s -> fpend (removelast (fstack s)) = [] ->
  (forall f, last_opt (fstack s) = Some f -> prev_lines f <> [] -> addp s = []) -> PInvL o s -> wfpL o (flush s).
Proof.
  intros CI G GA [PI1 PI2]. unfold flush. destruct (contstr s) as [|cc ct] eqn:CS.
  - destruct (last_opt (fstack s)) as [f|] eqn:LO; [|exact I]. destruct (prev_lines f) as [|y pl] eqn:PL; [exact I|].
    assert (NE: prev_lines f <> []) by (rewrite PL; discriminate). specialize (PI2 f eq_refl NE).
    rewrite G, (GA f eq_refl NE), !len_nil, !N.add_0_r in PI2. split; [|exact I]. cbn [blockish ty tpre tline tcol].
    rewrite len_nil, N.add_0_r. destruct (last_start f). exact PI2.
  - destruct (CI ltac:(rewrite CS; discriminate)) as [_ F0]. specialize (PI1 ltac:(discriminate)).
    destruct (last_opt (fstack s)) as [f|] eqn:LO; [rewrite (fpend_nil_last _ _ F0 LO)|]; (split; [|exact I]);
      cbn [blockish ty tpre tline tcol]; destruct (contstr_start s); exact PI1.
Qed.

(* 1 <= sl: the tokenizer's line counter starts at sl - 1, in N.  lines <> []: the end marker is located at the end of
   the last line, and with no line there is none (the tokenizer puts it on line sl - 1). *)
Theorem tok_positions : forall inds toks,
  tokenize_lines C isident isspace lines inds sl 0 is_first = Ok toks -> 1 <= sl -> lines <> [] -> wfpL 0 toks.
Proof.
  intros inds toks H SL NE. destruct (tokenize_lines_tail _ _ _ _ _ _ _ _ _ H) as (s & out & bl & LL & -> & B3 & G & GA).
  set (s0 := mkSt 0 inds [] (0, 0) None true [] [] [] (sl - 1) 0) in LL.
  destruct (lines_loop_pos lines O s0 is_first [] s out eq_refl ltac:(rewrite andb_true_r; reflexivity) LL (fun _ => conj eq_refl (conj eq_refl eq_refl)) I)
    as (W & CI & _ & AB & PI & EL).
  { split; [exact (CInv_nil s0 eq_refl)|split; [cbn [lnum s0]; lia|split; [reflexivity|split; [exact (PInv_quiet loc _ s0 eq_refl eq_refl)|intros X; contradiction]]]]. }
  cbn [Nat.add] in AB, EL. unfold before in AB, EL. rewrite firstn_all in AB, EL.
  (* the end marker follows the flushed text and its own prefix: it stands at the end of the input *)
  pose proof (f_equal len (flush_tiles s CI G GA)) as FL. rewrite len_app in FL.
  apply wfp_app. split; [exact W|]. apply wfp_app. split; [exact (flush_pos s _ CI G GA PI)|].
  apply wfp_app. split; [exact (blks_wfp loc _ _ _ _ B3 _)|]. apply wfp_one. cbn [blockish ty tpre tline tcol].
  rewrite (blks_emit _ _ _ _ B3), len_nil, N.add_0_r.
  replace (0 + len (emit out) + len (emit (flush s)) + len (addp s)) with (len (concat lines)) by lia.
  apply EL. destruct lines; [contradiction|discriminate].
Qed.
End Global.
Print Assumptions tok_positions.
