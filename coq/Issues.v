From Coq Require Import List Arith Bool.
Import ListNotations.

(* Issue stores (parso/normalizer.py, parso/python/errors.py, parso/python/pep8.py).
   An issue is identified, as Issue.__eq__ does, by (start position, code). *)

Record issue := mkI { i_code : nat; i_line : nat; i_col : nat; i_msg : nat }.
Definition same (a b : issue) : bool :=
  (i_code a =? i_code b) && (i_line a =? i_line b) && (i_col a =? i_col b).

(* Normalizer.add_issue *)
Definition add_issue (l : list issue) (x : issue) : list issue :=
  if existsb (same x) l then l else l ++ [x].

Definition key (a : issue) := (i_code a, i_line a, i_col a).
Lemma same_key a b : same a b = true <-> key a = key b.
Proof.
  unfold same, key. rewrite !andb_true_iff, !Nat.eqb_eq. split.
  - intros [[-> ->] ->]. reflexivity.
  - intros H. inversion H. auto.
Qed.

Lemma fold_left_inv {A B} (f : A -> B -> A) (I : A -> Prop) : (forall a b, I a -> I (f a b)) ->
  forall xs a, I a -> I (fold_left f xs a).
Proof. intros S. induction xs as [|x xs IH]; intros a H; [exact H|]. apply IH, S, H. Qed.

Lemma NoDup_snoc {A} (l : list A) x : NoDup l -> ~ In x l -> NoDup (l ++ [x]).
Proof. intros H N. apply (NoDup_Add (Add_app x l [])). rewrite app_nil_r. split; assumption. Qed.

Lemma add_issue_keys l x : NoDup (map key l) -> NoDup (map key (add_issue l x)).
Proof.
  intros H. unfold add_issue. destruct (existsb (same x) l) eqn:E; [exact H|].
  rewrite map_app. apply NoDup_snoc; [exact H|]. intros Hin. apply in_map_iff in Hin as (y & Hy & Hin).
  rewrite (proj2 (existsb_exists _ _)) in E; [discriminate|]. exists y. split; [exact Hin|apply same_key; symmetry; exact Hy].
Qed.

Theorem add_issue_nodup : forall xs, NoDup (map key (fold_left add_issue xs [])).
Proof. intros xs. apply (fold_left_inv add_issue (fun l => NoDup (map key l)) add_issue_keys). constructor. Qed.

Theorem add_issue_prefix : forall l x, exists t, add_issue l x = l ++ t.
Proof. intros l x. unfold add_issue. destruct (existsb (same x) l); [exists []; rewrite app_nil_r|exists [x]]; reflexivity. Qed.

(* ErrorFinder: first issue per line wins (dict.setdefault), emitted in insertion order by finalize *)
Definition line_dict := list (nat * issue).
Fixpoint has_line (d : line_dict) (ln : nat) : bool :=
  match d with [] => false | (k, _) :: r => (k =? ln) || has_line r ln end.
Definition err_add (d : line_dict) (x : issue) : line_dict :=
  if has_line d (i_line x) then d else d ++ [(i_line x, x)].
Definition finalize (d : line_dict) : list issue := map snd d.

Lemma has_line_in d ln : has_line d ln = true <-> In ln (map fst d).
Proof.
  induction d as [|[k x] r IH]; simpl; [split; [discriminate|intros []]|].
  rewrite orb_true_iff, Nat.eqb_eq, IH. tauto.
Qed.

Definition dict_ok (d : line_dict) : Prop := map i_line (finalize d) = map fst d /\ NoDup (map fst d).

Lemma err_add_ok d x : dict_ok d -> dict_ok (err_add d x).
Proof.
  intros [H1 H2]. unfold err_add. destruct (has_line d (i_line x)) eqn:E; [split; assumption|].
  unfold dict_ok, finalize in *. rewrite !map_app, H1. split; [reflexivity|].
  apply NoDup_snoc; [exact H2|]. intros Hin. apply has_line_in in Hin. simpl in Hin. congruence.
Qed.

Lemma fold_err_add_ok xs : dict_ok (fold_left err_add xs []).
Proof. apply (fold_left_inv err_add dict_ok err_add_ok). split; [reflexivity|constructor]. Qed.

Theorem one_issue_per_line : forall xs, NoDup (map i_line (finalize (fold_left err_add xs []))).
Proof. intros xs. destruct (fold_err_add_ok xs) as [-> H]. exact H. Qed.

Lemma err_add_lines d x ln : In ln (map fst (err_add d x)) <-> In ln (map fst d) \/ i_line x = ln.
Proof.
  unfold err_add. destruct (has_line d (i_line x)) eqn:E.
  - apply has_line_in in E. split; [auto|intros [H|<-]; assumption].
  - rewrite map_app, in_app_iff. simpl. tauto.
Qed.
Theorem reported_line_has_issue : forall xs x, In x xs -> In (i_line x) (map i_line (finalize (fold_left err_add xs []))).
Proof.
  intros xs x Hin. rewrite (proj1 (fold_err_add_ok xs)). generalize (@nil (nat * issue)).
  induction xs as [|y xs IH]; intros d; [destruct Hin|]. destruct Hin as [->|Hin]; simpl; [|apply IH; exact Hin].
  apply (fold_left_inv err_add (fun d => In (i_line x) (map fst d))); [intros; apply err_add_lines; left; assumption|apply err_add_lines; right; reflexivity].
Qed.
Print Assumptions add_issue_nodup.
Print Assumptions one_issue_per_line.
