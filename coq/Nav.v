From Coq Require Import List Arith Bool Lia.
Import ListNotations.
Require Import Engine Tree.
Local Open Scope nat_scope.

(* Navigation on trees (parso/tree.py: get_next_leaf, get_previous_leaf, get_first_leaf,
   get_last_leaf, get_leaf_for_position).  Parent pointers are modelled by a zipper: the list
   of (children of the parent, index in it) frames from the node up to the root - exactly the
   data `node.parent.children` / `c.index(node)` that the code walks. *)

Definition path := list nat.

Fixpoint first_leaf_path (t : tree) : path :=
  match t with
  | Leaf _ _ _ _ _ => []
  | Node _ cs => match cs with c :: _ => 0 :: first_leaf_path c | [] => [] end
  end.

Fixpoint last_leaf_path (t : tree) : path :=
  match t with
  | Leaf _ _ _ _ _ => []
  | Node _ cs =>
    (fix go (i : nat) (l : list tree) : path :=
       match l with [] => [] | [c] => i :: last_leaf_path c | _ :: r => go (S i) r end) 0 cs
  end.

Fixpoint leaf_paths (t : tree) : list path :=
  match t with
  | Leaf _ _ _ _ _ => [[]]
  | Node _ cs =>
    (fix go (i : nat) (l : list tree) : list path :=
       match l with [] => [] | c :: r => map (cons i) (leaf_paths c) ++ go (S i) r end) 0 cs
  end.

Fixpoint child_paths (i : nat) (l : list tree) : list path :=
  match l with [] => [] | c :: r => map (cons i) (leaf_paths c) ++ child_paths (S i) r end.
Lemma leaf_paths_node k cs : leaf_paths (Node k cs) = child_paths 0 cs.
Proof. simpl. generalize 0. induction cs as [|c r IH]; intros i; simpl; [reflexivity|]. rewrite IH. reflexivity. Qed.

Lemma leaf_paths_nodup_head : forall t p l1 l2, leaf_paths t = l1 ++ p :: l2 -> True.
Proof. trivial. Qed.

Lemma child_paths_app i a b : child_paths i (a ++ b) = child_paths i a ++ child_paths (i + length a) b.
Proof.
  revert i. induction a as [|c a IH]; intros i; simpl; [rewrite Nat.add_0_r; reflexivity|].
  rewrite IH, <- app_assoc, Nat.add_succ_r. reflexivity.
Qed.

Fixpoint last_child_path (i : nat) (l : list tree) : path :=
  match l with [] => [] | [c] => i :: last_leaf_path c | _ :: r => last_child_path (S i) r end.
Lemma last_leaf_path_node k cs : last_leaf_path (Node k cs) = last_child_path 0 cs.
Proof.
  simpl. generalize 0. induction cs as [|c r IH]; intros i; [reflexivity|].
  destruct r as [|c2 r]; [reflexivity|]. simpl in *. apply IH.
Qed.
Lemma last_child_path_snoc i a c : last_child_path i (a ++ [c]) = (i + length a) :: last_leaf_path c.
Proof.
  revert i. induction a as [|x a IH]; intros i; simpl; [rewrite Nat.add_0_r; reflexivity|].
  rewrite IH, Nat.add_succ_r. destruct a; reflexivity.
Qed.

Lemma app_cons_split {A} (l1 l2 r1 r2 : list A) (x : A) :
  l1 ++ l2 = r1 ++ x :: r2 ->
  (exists m, l1 = r1 ++ x :: m /\ r2 = m ++ l2) \/ (exists m, r1 = l1 ++ m /\ l2 = m ++ x :: r2).
Proof.
  intros H. apply app_eq_app in H as (m & [[-> E]|[-> E]]); [destruct m as [|y m]; simpl in E|].
  - subst l2. right. exists []. rewrite !app_nil_r. auto.
  - injection E as <- ->. left. eauto.
  - right. eauto.
Qed.

Lemma child_paths_split : forall l i l1 p l2, child_paths i l = l1 ++ p :: l2 ->
  exists a c b m1 q m2, l = a ++ c :: b /\ leaf_paths c = m1 ++ q :: m2 /\ p = (i + length a) :: q /\
    l1 = child_paths i a ++ map (cons (i + length a)) m1 /\
    l2 = map (cons (i + length a)) m2 ++ child_paths (S (i + length a)) b.
Proof.
  induction l as [|c r IH]; intros i l1 p l2 H; simpl in H; [destruct l1; discriminate|].
  apply app_cons_split in H as [(m & E & ->)|(m & -> & E)].
  - apply map_eq_app in E as (m1 & m' & Ec & <- & E). apply map_eq_cons in E as (q & m2 & -> & <- & <-).
    exists [], c, r, m1, q, m2. simpl. rewrite Nat.add_0_r. auto.
  - destruct (IH _ _ _ _ E) as (a & c' & b & m1 & q & m2 & -> & Ec & -> & -> & ->).
    exists (c :: a), c', b, m1, q, m2. simpl. rewrite Nat.add_succ_r, <- app_assoc. auto.
Qed.

Definition frame := (list tree * nat)%type.          (* siblings (parent.children), own index *)
Definition zipper := list frame.                     (* innermost first *)

Fixpoint zip (t : tree) (p : path) : option zipper :=
  match p with
  | [] => Some []
  | i :: q => match t with
              | Node _ cs => match nth_error cs i with
                             | Some c => match zip c q with Some z => Some (z ++ [(cs, i)]) | None => None end
                             | None => None end
              | Leaf _ _ _ _ _ => None
              end
  end.

Definition zpath (z : zipper) : path := rev (map snd z).

(* get_next_leaf; the result is a path from the root *)
Fixpoint next_leaf_z (z : zipper) : option path :=
  match z with
  | [] => None                                        (* node.parent is None *)
  | (cs, i) :: up =>
    match nth_error cs (S i) with
    | Some c' => Some (zpath up ++ S i :: first_leaf_path c')
    | None => next_leaf_z up                           (* i == len(c) - 1: node = node.parent *)
    end
  end.

Fixpoint prev_leaf_z (z : zipper) : option path :=
  match z with
  | [] => None
  | (cs, i) :: up =>
    match i with
    | O => prev_leaf_z up
    | S j => match nth_error cs j with
             | Some c' => Some (zpath up ++ j :: last_leaf_path c')
             | None => None end
    end
  end.

Definition get_next_leaf (root : tree) (p : path) : option path :=
  match zip root p with Some z => next_leaf_z z | None => None end.
Definition get_previous_leaf (root : tree) (p : path) : option path :=
  match zip root p with Some z => prev_leaf_z z | None => None end.

Lemma zpath_app z1 z2 : zpath (z1 ++ z2) = zpath z2 ++ zpath z1.
Proof. unfold zpath. rewrite map_app, rev_app_distr. reflexivity. Qed.

Lemma next_leaf_z_app z1 z2 :
  next_leaf_z (z1 ++ z2) = match next_leaf_z z1 with Some r => Some (zpath z2 ++ r) | None => next_leaf_z z2 end.
Proof.
  induction z1 as [|[cs i] z1 IH]; [reflexivity|]. cbn [app next_leaf_z].
  destruct (nth_error cs (S i)) as [c'|]; [|exact IH].
  rewrite zpath_app, <- app_assoc. reflexivity.
Qed.

(* the indices are in range, as in every zipper that zip returns: then prev_leaf_z gives None only by climbing to the root *)
Definition zvalid (z : zipper) : Prop := Forall (fun f : frame => snd f < length (fst f)) z.

Lemma zip_child_valid : forall q c z, zip c q = Some z -> zvalid z.
Proof.
  induction q as [|i q IH]; intros c z H; simpl in H; [inversion H; constructor|].
  destruct c as [|k cs]; [discriminate|]. destruct (nth_error cs i) as [c'|] eqn:E; [|discriminate].
  destruct (zip c' q) as [z'|] eqn:Z; [|discriminate]. inversion H; subst.
  apply Forall_app. split; [exact (IH _ _ Z)|]. constructor; [|constructor].
  apply nth_error_Some. simpl. congruence.
Qed.

Lemma prev_leaf_z_app z1 z2 : zvalid z1 ->
  prev_leaf_z (z1 ++ z2) = match prev_leaf_z z1 with Some r => Some (zpath z2 ++ r) | None => prev_leaf_z z2 end.
Proof.
  induction 1 as [|[cs i] z1 V _ IH]; [reflexivity|]. cbn [app prev_leaf_z].
  destruct i as [|j]; [exact IH|]. simpl in V.
  destruct (nth_error cs j) as [c'|] eqn:E; [|apply nth_error_None in E; lia].
  rewrite zpath_app, <- app_assoc. reflexivity.
Qed.

Definition last_error {A} (l : list A) : option A := match rev l with x :: _ => Some x | [] => None end.
Lemma last_error_app {A} (l1 l2 : list A) : last_error (l1 ++ l2) = match last_error l2 with Some x => Some x | None => last_error l1 end.
Proof. unfold last_error. rewrite rev_app_distr. destruct (rev l2); reflexivity. Qed.
Lemma last_error_map {A B} (f : A -> B) l : last_error (map f l) = option_map f (last_error l).
Proof. unfold last_error. rewrite <- map_rev. destruct (rev l); reflexivity. Qed.
Lemma last_error_none {A} (l : list A) : last_error l = None -> l = [].
Proof. unfold last_error. intros H. destruct (rev l) eqn:E; [|discriminate]. apply (f_equal (@rev A)) in E. rewrite rev_involutive in E. exact E. Qed.
Lemma last_error_snoc {A} (l : list A) x : last_error (l ++ [x]) = Some x.
Proof. rewrite last_error_app. reflexivity. Qed.

Lemma child_paths_hd i c b x : hd_error (leaf_paths c) = Some x -> hd_error (child_paths i (c :: b)) = Some (i :: x).
Proof. simpl. destruct (leaf_paths c); [discriminate|intros [= ->]; reflexivity]. Qed.
Lemma child_paths_last i a c x : last_error (leaf_paths c) = Some x ->
  last_error (child_paths i (a ++ [c])) = Some ((i + length a) :: x).
Proof.
  intros H. rewrite child_paths_app. simpl. rewrite app_nil_r, last_error_app, last_error_map.
  unfold path in *. rewrite H. reflexivity.
Qed.

Theorem first_leaf_spec : forall t, nonempty_nodes t -> hd_error (leaf_paths t) = Some (first_leaf_path t).
Proof.
  induction t as [k0 v0 p0 l0 c0|k cs IH] using tree_ind'; intros W; [reflexivity|].
  apply nonempty_node in W as [NE W]. destruct cs as [|c r]; [contradiction|].
  rewrite leaf_paths_node. apply child_paths_hd, (Forall_inv IH), (Forall_inv W).
Qed.

Theorem last_leaf_spec : forall t, nonempty_nodes t -> last_error (leaf_paths t) = Some (last_leaf_path t).
Proof.
  induction t as [k0 v0 p0 l0 c0|k cs IH] using tree_ind'; intros W; [reflexivity|].
  apply nonempty_node in W as [NE W]. destruct (exists_last NE) as (a & c & ->).
  apply Forall_app in W as [_ W]. apply Forall_app in IH as [_ IH].
  rewrite leaf_paths_node, last_leaf_path_node, last_child_path_snoc.
  apply child_paths_last, (Forall_inv IH), (Forall_inv W).
Qed.

Lemma nth_error_middle {A} (a : list A) c b : nth_error (a ++ c :: b) (length a) = Some c.
Proof. induction a; [reflexivity|assumption]. Qed.
Lemma nth_error_after {A} (a : list A) c b : nth_error (a ++ c :: b) (S (length a)) = hd_error b.
Proof. induction a; [destruct b; reflexivity|assumption]. Qed.

Lemma next_sibling a c b : Forall nonempty_nodes b ->
  next_leaf_z [(a ++ c :: b, length a)] = hd_error (child_paths (S (length a)) b).
Proof.
  intros W. cbn [next_leaf_z]. rewrite nth_error_after. destruct W as [|c' b' Wc _]; [reflexivity|].
  symmetry. apply child_paths_hd, first_leaf_spec, Wc.
Qed.

Lemma prev_sibling a c b : Forall nonempty_nodes a ->
  prev_leaf_z [(a ++ c :: b, length a)] = last_error (child_paths 0 a).
Proof.
  induction a as [|c' a _] using rev_ind; intros W; [reflexivity|]. apply Forall_app in W as [_ W].
  rewrite (child_paths_last 0 a c' _ (last_leaf_spec c' (Forall_inv W))), app_length, Nat.add_1_r, <- app_assoc.
  cbn [prev_leaf_z app]. rewrite nth_error_middle. reflexivity.
Qed.

Theorem leaf_neighbours : forall t l1 p l2, leaf_paths t = l1 ++ p :: l2 ->
  exists z, zip t p = Some z /\
    (nonempty_nodes t -> next_leaf_z z = hd_error l2 /\ prev_leaf_z z = last_error l1).
Proof.
  induction t as [k0 v0 p0 l0 c0|k cs IH] using tree_ind'; intros l1 p l2 H.
  - symmetry in H. apply elt_eq_unit in H as (-> & -> & ->). exists []. repeat split.
  - rewrite leaf_paths_node in H. apply child_paths_split in H as (a & c & b & m1 & q & m2 & -> & Ec & -> & -> & ->).
    destruct (Forall_elt _ _ _ IH _ _ _ Ec) as (z & Z & S). cbn [Nat.add zip]. rewrite nth_error_middle, Z.
    eexists. split; [reflexivity|]. intros W. apply nonempty_node in W as [_ W].
    apply Forall_app in W as [Wa W]. apply Forall_cons_iff in W as [Wc Wb]. destruct (S Wc) as [Sn Sp].
    split.
    + rewrite next_leaf_z_app, Sn, (next_sibling _ _ _ Wb). destruct m2; reflexivity.
    + rewrite (prev_leaf_z_app _ _ (zip_child_valid _ _ _ Z)), Sp, (prev_sibling _ _ _ Wa), last_error_app, last_error_map.
      unfold path in *. destruct (last_error m1); reflexivity.
Qed.

Lemma leaf_path_zip : forall t p, In p (leaf_paths t) -> exists z, zip t p = Some z.
Proof.
  intros t p H. apply in_split in H as (l1 & l2 & H). destruct (leaf_neighbours _ _ _ _ H) as (z & Z & _). eauto.
Qed.

Theorem get_next_leaf_spec : forall t, nonempty_nodes t ->
  forall l1 p l2, leaf_paths t = l1 ++ p :: l2 -> get_next_leaf t p = hd_error l2.
Proof.
  intros t W l1 p l2 H. unfold get_next_leaf. destruct (leaf_neighbours _ _ _ _ H) as (z & -> & S). apply (S W).
Qed.

Theorem get_previous_leaf_spec : forall t, nonempty_nodes t ->
  forall l1 p l2, leaf_paths t = l1 ++ p :: l2 -> get_previous_leaf t p = last_error l1.
Proof.
  intros t W l1 p l2 H. unfold get_previous_leaf. destruct (leaf_neighbours _ _ _ _ H) as (z & -> & S). apply (S W).
Qed.
Print Assumptions get_next_leaf_spec.
Print Assumptions get_previous_leaf_spec.

(* get_leaf_for_position: binary search over the children by end position, recursively.
   Positions are (line, column) pairs ordered lexicographically; here any type with a
   total preorder given as a boolean test. *)
Section Lookup.
Variable P : Type.
Variable leb : P -> P -> bool.
Hypothesis leb_trans : forall a b c, leb a b = true -> leb b c = true -> leb a c = true.
Hypothesis leb_total : forall a b, leb a b = true \/ leb b a = true.
Variable lstart lend : tree -> P.                   (* start_pos / end_pos of a leaf *)
Variable dflt : P.

Definition ltb (a b : P) : bool := negb (leb b a).

Fixpoint spos (t : tree) : P :=                     (* BaseNode.start_pos = children[0].start_pos *)
  match t with
  | Leaf _ _ _ _ _ => lstart t
  | Node _ cs => match cs with c :: _ => spos c | [] => dflt end
  end.
Fixpoint epos (t : tree) : P :=                     (* BaseNode.end_pos = children[-1].end_pos *)
  match t with
  | Leaf _ _ _ _ _ => lend t
  | Node _ cs => (fix go (l : list tree) : P := match l with [] => dflt | [c] => epos c | _ :: r => go r end) cs
  end.

Definition nth_t (cs : list tree) (i : nat) : tree := nth i cs (Node KErrorNode []).

(* binary_search(lower, upper): index of the child to descend into *)
Fixpoint bsearch (fuel : nat) (cs : list tree) (pos : P) (lower upper : nat) : option nat :=
  match fuel with
  | O => None
  | S f =>
    if lower =? upper then Some lower
    else let index := (lower + upper) / 2 in
         if leb pos (epos (nth_t cs index)) then bsearch f cs pos lower index
         else bsearch f cs pos (index + 1) upper
  end.

Definition mono (cs : list tree) : Prop :=
  forall i j, i <= j -> j < length cs -> leb (epos (nth_t cs i)) (epos (nth_t cs j)) = true.

Lemma mono_after cs pos i j : mono cs -> i <= j -> j < length cs ->
  leb pos (epos (nth_t cs j)) = false -> leb pos (epos (nth_t cs i)) = false.
Proof.
  intros M L U H. destruct (leb pos (epos (nth_t cs i))) eqn:X; [|reflexivity].
  rewrite (leb_trans _ _ _ X (M i j L U)) in H. discriminate.
Qed.

Lemma bsearch_spec : forall fuel cs pos lower upper,
  mono cs -> lower <= upper -> upper < length cs -> upper - lower < fuel ->
  leb pos (epos (nth_t cs upper)) = true ->
  (forall i, i < lower -> leb pos (epos (nth_t cs i)) = false) ->
  exists k, bsearch fuel cs pos lower upper = Some k /\ lower <= k <= upper /\
            leb pos (epos (nth_t cs k)) = true /\ forall i, i < k -> leb pos (epos (nth_t cs i)) = false.
Proof.
  induction fuel as [|f IH]; intros cs pos lower upper M L U F HU HL; [lia|].
  cbn [bsearch]. destruct (lower =? upper) eqn:E.
  - apply Nat.eqb_eq in E. subst. exists upper. repeat split; auto; lia.
  - apply Nat.eqb_neq in E.
    assert (D: lower <= (lower + upper) / 2 < upper).
    { split; [apply Nat.div_le_lower_bound; lia|apply Nat.div_lt_upper_bound; lia]. }
    set (idx := (lower + upper) / 2) in *.
    destruct (leb pos (epos (nth_t cs idx))) eqn:T.
    + destruct (IH cs pos lower idx M) as (k & Hk & Hr & H1 & H2); auto; try lia.
      exists k. repeat split; auto; lia.
    + destruct (IH cs pos (idx + 1) upper M) as (k & Hk & Hr & H1 & H2); auto; try lia.
      * intros i Hi. apply (mono_after cs pos i idx M); [lia|lia|exact T].
      * exists k. repeat split; auto; lia.
Qed.

(* fuel bounds the depth of the tree.  The range check that get_leaf_for_position makes on entry
   ((1, 0) <= position <= children[-1].end_pos, else ValueError) is left out: the caller's is a hypothesis of lookup_spec,
   and those of the recursive calls cannot fire, since the search only descends into a child that does not end before
   the position (bsearch_spec). *)
Inductive found := FLeaf (p : path) | FNone | FFuel.

Fixpoint lookup (fuel : nat) (t : tree) (pos : P) (incl : bool) : found :=
  match fuel with
  | O => FFuel
  | S f =>
    match t with
    | Leaf _ _ _ _ _ => FLeaf []                         (* AttributeError branch: return element *)
    | Node _ cs =>
      match bsearch (S (length cs)) cs pos 0 (length cs - 1) with
      | None => FFuel
      | Some k =>
        let element := nth_t cs k in
        if negb incl && ltb pos (spos element) then FNone
        else match element with
             | Leaf _ _ _ _ _ => FLeaf [k]
             | Node _ _ => match lookup f element pos incl with
                           | FLeaf q => FLeaf (k :: q)
                           | x => x end
             end
      end
    end
  end.

Fixpoint first_ge (t : tree) (pos : P) : option path :=
  match t with
  | Leaf _ _ _ _ _ => if leb pos (lend t) then Some [] else None
  | Node _ cs =>
    (fix go (i : nat) (l : list tree) : option path :=
       match l with
       | [] => None
       | c :: r => match first_ge c pos with Some q => Some (i :: q) | None => go (S i) r end
       end) 0 cs
  end.
Fixpoint first_ge_children (i : nat) (l : list tree) (pos : P) : option path :=
  match l with [] => None | c :: r => match first_ge c pos with Some q => Some (i :: q) | None => first_ge_children (S i) r pos end end.
Lemma first_ge_node k cs pos : first_ge (Node k cs) pos = first_ge_children 0 cs pos.
Proof. simpl. generalize 0. induction cs as [|c r IH]; intros i; simpl; [reflexivity|]. rewrite IH. reflexivity. Qed.

Lemma first_ge_children_none i l pos :
  first_ge_children i l pos = None <-> Forall (fun c => first_ge c pos = None) l.
Proof.
  revert i. induction l as [|c r IH]; intros i; simpl; [split; constructor|].
  rewrite Forall_cons_iff, <- (IH (S i)). destruct (first_ge c pos); [split; [discriminate|intros [? _]; discriminate]|tauto].
Qed.

Lemma first_ge_children_at : forall cs i0 k pos,
  (forall i, i < k -> first_ge (nth_t cs i) pos = None) ->
  first_ge_children i0 cs pos = match first_ge (nth_t cs k) pos with
                                | Some q => Some ((i0 + k) :: q)
                                | None => first_ge_children (i0 + S k) (skipn (S k) cs) pos end.
Proof.
  induction cs as [|c r IH]; intros i0 k pos N; [destruct k; reflexivity|].
  destruct k as [|k]; unfold nth_t; simpl.
  - rewrite Nat.add_0_r, Nat.add_1_r. reflexivity.
  - rewrite (N 0 (Nat.lt_0_succ k) : first_ge c pos = None), (IH (S i0) k) by (intros i Hi; apply (N (S i)); lia).
    rewrite !Nat.add_succ_r. reflexivity.
Qed.

Fixpoint depth (t : tree) : nat :=
  match t with
  | Leaf _ _ _ _ _ => 1
  | Node _ cs => S ((fix go (l : list tree) : nat := match l with [] => 0 | c :: r => Nat.max (depth c) (go r) end) cs)
  end.

Lemma depth_child k cs c : In c cs -> depth c < depth (Node k cs).
Proof. simpl. induction cs as [|x r IH]; [intros []|intros [->|H]; [|specialize (IH H)]; lia]. Qed.

Fixpoint wf_mono (t : tree) : Prop :=
  match t with
  | Leaf _ _ _ _ _ => True
  | Node _ cs => cs <> [] /\ mono cs /\ (fix all (l : list tree) : Prop := match l with [] => True | c :: r => wf_mono c /\ all r end) cs
  end.

Lemma wf_mono_node k cs : wf_mono (Node k cs) <-> cs <> [] /\ mono cs /\ Forall wf_mono cs.
Proof. rewrite <- all_Forall. reflexivity. Qed.

Lemma epos_node k cs : cs <> [] -> epos (Node k cs) = epos (nth_t cs (length cs - 1)).
Proof.
  intros NE. simpl. induction cs as [|c r IH]; [contradiction|].
  destruct r as [|c2 r]; [reflexivity|]. rewrite IH by discriminate. unfold nth_t.
  replace (length (c :: c2 :: r) - 1) with (S (length (c2 :: r) - 1)) by (simpl; lia). reflexivity.
Qed.

Lemma first_ge_none : forall t pos, wf_mono t -> first_ge t pos = None <-> leb pos (epos t) = false.
Proof.
  induction t as [k0 v0 p0 l0 c0|k cs IH] using tree_ind'; intros pos W.
  - simpl. destruct (leb pos (lend (Leaf k0 v0 p0 l0 c0))); split; congruence.
  - apply wf_mono_node in W as (NE & M & A). rewrite first_ge_node, first_ge_children_none, (epos_node k cs NE).
    assert (L: length cs - 1 < length cs) by (destruct cs; [contradiction|simpl; lia]).
    rewrite Forall_forall in IH, A. split.
    + intros H. rewrite Forall_forall in H. apply IH; [|apply A|apply H]; apply nth_In, L.
    + intros H. apply Forall_forall. intros c I. destruct (In_nth _ _ (Node KErrorNode []) I) as (i & Li & <-).
      apply (IH _ I); [exact (A _ I)|]. apply (mono_after cs pos i (length cs - 1) M); [lia|exact L|exact H].
Qed.

Hypothesis leaf_ok : forall t, match t with Leaf _ _ _ _ _ => leb (lstart t) (lend t) = true | Node _ _ => True end.

Definition leaf_start_at (t : tree) (p : path) : P :=
  match subtree t p with Some l => lstart l | None => dflt end.

Definition lookup_spec_fn (t : tree) (pos : P) (incl : bool) : found :=
  match first_ge t pos with
  | Some p => if negb incl && ltb pos (leaf_start_at t p) then FNone else FLeaf p
  | None => FFuel
  end.

Lemma leaf_start_at_child k cs i q : i < length cs -> leaf_start_at (Node k cs) (i :: q) = leaf_start_at (nth_t cs i) q.
Proof. intros Li. unfold leaf_start_at, nth_t. simpl. rewrite (nth_error_nth' cs (Node KErrorNode []) Li). reflexivity. Qed.

Lemma before_start_first : forall t pos, wf_mono t -> ltb pos (spos t) = true ->
  first_ge t pos = Some (first_leaf_path t) /\ leaf_start_at t (first_leaf_path t) = spos t.
Proof.
  induction t as [k0 v0 p0 l0 c0|k cs IH] using tree_ind'; intros pos W H.
  - split; [|reflexivity]. apply negb_true_iff in H. simpl in *.
    destruct (leb_total pos (lstart (Leaf k0 v0 p0 l0 c0))) as [T|T]; [|congruence].
    rewrite (leb_trans _ _ _ T (leaf_ok (Leaf k0 v0 p0 l0 c0))). reflexivity.
  - apply wf_mono_node in W as (NE & _ & A). destruct cs as [|c r]; [contradiction|].
    destruct (Forall_inv IH pos (Forall_inv A) H) as [F S]. rewrite first_ge_node. simpl. rewrite F. split; [reflexivity|exact S].
Qed.

Theorem lookup_spec : forall fuel t pos incl,
  wf_mono t -> depth t <= fuel -> leb pos (epos t) = true ->
  lookup fuel t pos incl = match t with
                           | Leaf _ _ _ _ _ => FLeaf []
                           | Node _ _ => lookup_spec_fn t pos incl end.
Proof.
  induction fuel as [|f IH]; intros t pos incl W D H; [destruct t; simpl in D; lia|].
  destruct t as [k0 v0 p0 l0 c0|k cs]; [reflexivity|].
  apply wf_mono_node in W as (NE & M & A). rewrite (epos_node k cs NE) in H.
  assert (L: length cs - 1 < length cs) by (destruct cs; [contradiction|simpl; lia]).
  destruct (bsearch_spec (S (length cs)) cs pos 0 (length cs - 1) M) as (i & Hb & Hr & Hi & Hl);
    [lia|exact L|lia|exact H|intros i Hi; lia|].
  cbn [lookup]. rewrite Hb. unfold lookup_spec_fn.
  assert (Li: i < length cs) by lia. pose proof (nth_In cs (Node KErrorNode []) Li) as I. fold (nth_t cs i) in I.
  rewrite Forall_forall in A.
  (* the first leaf not before pos lies in child i: the children before it end before pos *)
  rewrite first_ge_node, (first_ge_children_at cs 0 i pos)
    by (intros j Hj; apply first_ge_none; [apply A, nth_In; lia|apply Hl, Hj]).
  destruct (first_ge (nth_t cs i) pos) as [q|] eqn:Hq; [|apply first_ge_none in Hq; [congruence|exact (A _ I)]].
  cbn [Nat.add]. rewrite (leaf_start_at_child k cs i q Li).
  destruct (negb incl && ltb pos (spos (nth_t cs i))) eqn:C.
  - (* on the prefix of the element *)
    apply andb_true_iff in C as [C1 C2].
    destruct (before_start_first _ pos (A _ I) C2) as [F S]. rewrite F in Hq. inversion Hq; subst q.
    rewrite S, C1, C2. reflexivity.
  - pose proof (depth_child k cs _ I) as Dn.
    destruct (nth_t cs i) as [k1 v1 p1 l1 c1|k1 cs1] eqn:En.
    + simpl in Hq, Hi. rewrite Hi in Hq. inversion Hq; subst q. unfold leaf_start_at. simpl in *. rewrite C. reflexivity.
    + rewrite (IH _ pos incl (A _ I) ltac:(lia) Hi). unfold lookup_spec_fn. rewrite Hq.
      destruct (negb incl && ltb pos (leaf_start_at (Node k1 cs1) q)); reflexivity.
Qed.
End Lookup.
Print Assumptions lookup_spec.

From Coq Require Import NArith.
Require Lines.
Definition pos := (N * N)%type.
Definition pos_leb (a b : pos) : bool :=
  (N.ltb (fst a) (fst b)) || ((N.eqb (fst a) (fst b)) && (N.leb (snd a) (snd b))).
Lemma pos_leb_iff a b : pos_leb a b = true <-> (fst a < fst b \/ fst a = fst b /\ snd a <= snd b)%N.
Proof. unfold pos_leb. rewrite orb_true_iff, andb_true_iff, N.ltb_lt, N.eqb_eq, N.leb_le. reflexivity. Qed.
Lemma pos_leb_trans a b c : pos_leb a b = true -> pos_leb b c = true -> pos_leb a c = true.
Proof. rewrite !pos_leb_iff. lia. Qed.
Lemma pos_leb_total a b : pos_leb a b = true \/ pos_leb b a = true.
Proof. rewrite !pos_leb_iff. lia. Qed.

Definition leaf_start (t : tree) : pos := match t with Leaf _ _ _ l c => (l, c) | Node _ _ => (0, 0)%N end.
(* Leaf.end_pos: split_lines(value); same line -> column + len(last line), else len(last line).  The code splits without
   keepends; split_keep gives as many lines and the same last line, which never carries a line break. *)
Definition leaf_end (t : tree) : pos :=
  match t with
  | Leaf _ v _ l c =>
    let ls := Lines.split_keep v in
    let lastl := last ls [] in
    if Nat.eqb (length ls) 1 then (l, (c + N.of_nat (length lastl))%N)
    else ((l + N.of_nat (length ls) - 1)%N, N.of_nat (length lastl))
  | Node _ _ => (0, 0)%N
  end.

Definition nav_lookup (t : tree) (p : pos) (incl : bool) : found :=
  lookup pos pos_leb leaf_start leaf_end (0, 0)%N (S (depth t)) t p incl.
Definition nav_end (t : tree) : pos := epos pos leaf_end (0, 0)%N t.

Lemma leaf_start_le_end : forall t, match t with Leaf _ _ _ _ _ => pos_leb (leaf_start t) (leaf_end t) = true | Node _ _ => True end.
Proof.
  destruct t as [k v p l c|]; [|exact I]. apply pos_leb_iff. unfold leaf_start, leaf_end.
  pose proof (Lines.split_keep_nonempty v) as NE.
  destruct (Lines.split_keep v) as [|x [|y r]]; [contradiction|simpl; lia|]. simpl Nat.eqb. simpl length. cbn [fst snd]. lia.
Qed.

(* that the parser's trees have monotone ends is a hypothesis here; no theorem of the development establishes it *)
Theorem nav_lookup_spec : forall k cs p incl,
  wf_mono pos pos_leb leaf_end (0, 0)%N (Node k cs) -> pos_leb p (nav_end (Node k cs)) = true ->
  nav_lookup (Node k cs) p incl = lookup_spec_fn pos pos_leb leaf_start leaf_end (0, 0)%N (Node k cs) p incl.
Proof.
  intros k cs p incl W H. unfold nav_lookup.
  rewrite (lookup_spec pos pos_leb pos_leb_trans pos_leb_total leaf_start leaf_end (0, 0)%N leaf_start_le_end); auto.
Qed.
Print Assumptions nav_lookup_spec.
