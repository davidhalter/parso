From Coq Require Import List Arith Bool Lia.
Import ListNotations.

(* One file, one grammar, one cache directory: the freshness protocol of
   Grammar.parse / load_module / _load_from_file_system / try_to_save_module,
   with the parse split at its real I/O points and the environment writing the file
   in between.  Version k of the file has modification time mt k. *)
Section Cache.
Variable mt : nat -> nat.
Hypothesis mt_mono : forall a b, a < b -> mt a < mt b.

Record state := mkS { cur : nat;                              (* current version of the file *)
                      mem : option (nat * nat);               (* (version parsed, change_time) *)
                      disk : option (nat * nat * nat) }.      (* (version, change_time, pickle mtime) *)

Definition writes (n : nat) (s : state) : state := mkS (cur s + n) (mem s) (disk s).

(* fixA: record an mtime sampled BEFORE the read (Grammar.parse stats again right before file_io.read());
   fixB: judge a disk entry by the time recorded in it as well *)
Definition full_parse (fixA : bool) (p1 : nat) (w2 w3 : nat) (s : state) : state * nat :=
  let p1' := mt (cur s) in                            (* file_io.get_last_modified() before the read *)
  let s := writes w2 s in
  let v := cur s in                                   (* file_io.read() *)
  let s := writes w3 s in
  let p2 := mt (cur s) in                             (* file_io.get_last_modified() in try_to_save_module *)
  let ct := if fixA then p1' else p2 in
  (mkS (cur s) (Some (v, ct)) (Some (v, ct, mt (cur s))), v).

Definition parse (fixA fixB : bool) (w1 w2 w3 : nat) (s : state) : state * nat :=
  let p1 := mt (cur s) in                             (* load_module: get_last_modified() *)
  let s := writes w1 s in
  match mem s with
  | Some (v, ct) => if p1 <=? ct then (s, v) else full_parse fixA p1 w2 w3 s
  | None =>
    match disk s with
    | Some (v, ct, pm) =>
      if pm <? p1 then full_parse fixA p1 w2 w3 s
      else if fixB && (ct <? p1) then full_parse fixA p1 w2 w3 s
      else (mkS (cur s) (Some (v, ct)) (disk s), v)
    | None => full_parse fixA p1 w2 w3 s
    end
  end.

Inductive op := Parse (w1 w2 w3 : nat) | Write | DropMemory | DeleteDisk.

Definition step (fixA fixB : bool) (s : state) (o : op) : state * option (nat * nat) :=
  match o with
  | Parse w1 w2 w3 => let '(s', v) := parse fixA fixB w1 w2 w3 s in (s', Some (cur s, v))
  | Write => (writes 1 s, None)
  | DropMemory => (mkS (cur s) None (disk s), None)
  | DeleteDisk => (mkS (cur s) (mem s) None, None)
  end.

(* collects (version current when the parse started, version served) *)
Fixpoint run (fixA fixB : bool) (s : state) (h : list op) : list (nat * nat) :=
  match h with
  | [] => []
  | o :: r => let '(s', obs) := step fixA fixB s o in
              match obs with Some x => x :: run fixA fixB s' r | None => run fixA fixB s' r end
  end.

Definition not_stale (obs : list (nat * nat)) : Prop := forall c v, In (c, v) obs -> c <= v.

Definition entry_ok (s : state) (v ct : nat) : Prop := v <= cur s /\ exists u, u <= v /\ ct = mt u.
Definition Inv (s : state) : Prop :=
  (forall v ct, mem s = Some (v, ct) -> entry_ok s v ct) /\
  (forall v ct pm, disk s = Some (v, ct, pm) -> entry_ok s v ct).

Lemma mt_le a b : mt a <= mt b -> a <= b.
Proof. intros H. destruct (le_lt_dec a b) as [L|L]; [exact L|]. apply mt_mono in L. lia. Qed.

Lemma entry_ok_writes n s v ct : entry_ok s v ct -> entry_ok (writes n s) v ct.
Proof. intros [H1 H2]. split; [simpl; lia|exact H2]. Qed.
Lemma Inv_writes n s : Inv s -> Inv (writes n s).
Proof. intros [H1 H2]. split; intros; apply entry_ok_writes; [eapply H1|eapply H2]; eassumption. Qed.

Lemma full_parse_ok p1 c0 w2 w3 s s' v :
  c0 <= cur s -> full_parse true p1 w2 w3 s = (s', v) -> Inv s' /\ c0 <= v.
Proof.
  intros Hc H. unfold full_parse in H. inversion H; subst; clear H. simpl.
  split; [|lia].
  split; simpl; intros v ct; [intros E|intros pm E]; inversion E; subst;
    (split; [simpl; lia|exists (cur s); split; [lia|reflexivity]]).
Qed.

Lemma parse_ok w1 w2 w3 s s' v :
  Inv s -> parse true true w1 w2 w3 s = (s', v) -> Inv s' /\ cur s <= v.
Proof.
  intros I H. unfold parse in H.
  pose proof (Inv_writes w1 s I) as I1. set (s1 := writes w1 s) in *.
  assert (C: cur s <= cur s1) by (simpl; lia).
  pose proof (full_parse_ok (mt (cur s)) _ w2 w3 s1 s' v C) as FP.
  destruct (mem s1) as [[mv mct]|] eqn:M.
  - destruct (mt (cur s) <=? mct) eqn:T; [|exact (FP H)].
    inversion H; subst. split; [exact I1|].
    destruct I1 as [I1 _]. destruct (I1 _ _ M) as [_ (u & Hu & ->)].
    apply Nat.leb_le in T. apply mt_le in T. lia.
  - destruct (disk s1) as [[[dv dct] dpm]|] eqn:D; [|exact (FP H)].
    destruct (dpm <? mt (cur s)); [exact (FP H)|].
    simpl in H. destruct (dct <? mt (cur s)) eqn:T; [exact (FP H)|].
    inversion H; subst. destruct I1 as [_ I1d]. pose proof (I1d _ _ _ D) as E. split.
    + split; simpl; [intros v' ct' X|intros v' ct' pm' X]; inversion X; subst; exact E.
    + destruct E as [_ (u & Hu & ->)]. apply Nat.ltb_ge in T. apply mt_le in T. lia.
Qed.

Theorem cache_transparent_fixed : forall h s, Inv s -> not_stale (run true true s h).
Proof.
  induction h as [|o r IH]; intros s I c v Hin; simpl in Hin; [contradiction|].
  destruct o as [w1 w2 w3| | |]; simpl in Hin.
  - destruct (parse true true w1 w2 w3 s) as [s' v'] eqn:P.
    destruct (parse_ok _ _ _ _ _ _ I P) as [I' L].
    destruct Hin as [E|Hin]; [inversion E; subst; exact L|eapply IH; eassumption].
  - eapply IH; [|exact Hin]. apply Inv_writes. exact I.
  - eapply IH; [|exact Hin]. destruct I as [_ I2]. split; simpl; [discriminate|exact I2].
  - eapply IH; [|exact Hin]. destruct I as [I1 _]. split; simpl; [exact I1|discriminate].
Qed.
End Cache.

(* without the two repairs (fixA = fixB = false), and with either one alone, a stale tree is served *)
Definition init := mkS 0 None None.
Example current_code_refuted :
  run S false false init [Parse 0 0 1; Parse 0 0 0] = [(0, 0); (1, 0)].
Proof. reflexivity. Qed.
Example fixA_alone_refuted :
  run S true false init [Parse 0 0 1; DropMemory; Parse 0 0 0] = [(0, 0); (1, 0)].
Proof. reflexivity. Qed.
Example fixB_alone_refuted :
  run S false true init [Parse 0 0 1; Parse 0 0 0] = [(0, 0); (1, 0)].
Proof. reflexivity. Qed.
Lemma init_inv : Inv S init. Proof. split; simpl; discriminate. Qed.
Print Assumptions cache_transparent_fixed.
