From Coq Require Import List NArith ZArith Bool Lia.
Import ListNotations.
Require Import Tok TokFacts TokSlices.
Open Scope N_scope.

(* What the functions of the tokenizer emit and how they leave the state, by the case analysis of their bodies.
   The theorems about the token stream (tiling, depth walk, block positions, offsets) argue from these descriptions
   of dedent_loop, fs_part, indent_part, error_token, classify and body, not from the bodies. *)

Definition ordinary (t : ttype) : bool :=
  match t with INDENT | DEDENT | ERROR_DEDENT | ENDMARKER => false | _ => true end.

Definition ords (l : list Token) : Prop := Forall (fun t => ordinary (ty t) = true) l.

Fixpoint place (sl col : N) (pfx : str) (ps : list (ttype * str)) : list Token :=
  match ps with
  | [] => []
  | (t, p) :: r => mkTok t p sl col pfx :: place sl (col + len p) [] r
  end.
Definition pieces (ps : list (ttype * str)) : Prop := ps <> [] /\ Forall (fun tp => ordinary (fst tp) = true) ps.
Lemma place_ords sl ps : Forall (fun tp => ordinary (fst tp) = true) ps -> forall col pfx, ords (place sl col pfx ps).
Proof. induction 1 as [|[t p] r O _ IH]; intros col pfx; constructor; [exact O|apply IH]. Qed.

(* The block tokens bl take the indentation stack from height h to height h'; INDENT and DEDENT sit at p.  An
   ERROR_DEDENT replaces the top of the stack and may sit anywhere; a DEDENT never empties the stack. *)
Inductive blks (p : N * N) : nat -> list Token -> nat -> Prop :=
| blks_nil h : blks p h [] h
| blks_indent h bl h' : blks p (S h) bl h' -> blks p h (mkTok INDENT [] (fst p) (snd p) [] :: bl) h'
| blks_dedent h bl h' : blks p (S h) bl h' -> blks p (S (S h)) (mkTok DEDENT [] (fst p) (snd p) [] :: bl) h'
| blks_error h bl h' l c : blks p h bl h' -> blks p h (mkTok ERROR_DEDENT [] l c [] :: bl) h'.

Lemma blks_app p a l b r c : blks p a l b -> blks p b r c -> blks p a (l ++ r) c.
Proof. induction 1; intros R; cbn [app]; [exact R|constructor; auto ..]. Qed.
Lemma blks_nil_inv p h h' : blks p h [] h' -> h = h'.
Proof. inversion 1. reflexivity. Qed.

Lemma dedent_loop_blks : forall fuel start lnum spos inds acc inds' toks,
  dedent_loop fuel start lnum spos inds acc = Ok (inds', toks) ->
  exists ds, toks = acc ++ ds /\ blks spos (length inds) ds (length inds').
Proof.
  induction fuel as [|f IH]; intros start lnum spos inds acc inds' toks H; [discriminate|]. simpl in H.
  destruct (last_opt inds) as [top|] eqn:L1; [|discriminate].
  destruct (start <? top).
  - destruct (last_opt (removelast inds)) as [second|] eqn:L2; [|discriminate].
    destruct (second <? start).
    + inversion H; subst. eexists. split; [reflexivity|].
      replace (length (set_last inds start)) with (length inds)
        by (unfold set_last; rewrite app_length, (length_split_last _ _ L1); simpl; lia).
      apply blks_error, blks_nil.
    + apply IH in H as (ds & -> & B). eexists. split; [rewrite <- app_assoc; reflexivity|].
      rewrite (length_split_last _ _ L1). rewrite (length_split_last _ _ L2) in *. apply blks_dedent. exact B.
  - inversion H; subst. exists []. split; [symmetry; apply app_nil_r|apply blks_nil].
Qed.
Lemma dedent_blks start lnum spos inds inds' ds :
  dedent_if_necessary start lnum spos inds = Ok (inds', ds) -> blks spos (length inds) ds (length inds').
Proof. unfold dedent_if_necessary. intros H. apply dedent_loop_blks in H as (ds' & -> & B). exact B. Qed.

Lemma blks_dedents ln mx (l : list N) : blks (ln, mx) (S (length l)) (map (fun _ => mkTok DEDENT [] ln mx []) l) 1.
Proof. induction l as [|x l IH]; [apply blks_nil|apply (blks_dedent (ln, mx)), IH]. Qed.

Lemma fpend_app a b : fpend (a ++ b) = fpend a ++ fpend b.
Proof. unfold fpend. rewrite map_app, concat_app. reflexivity. Qed.
Lemma fpend_one f : fpend [f] = prev_lines f.
Proof. unfold fpend. simpl. apply app_nil_r. Qed.
Lemma no_pending_fpend fs : no_pending fs = true -> fpend fs = [].
Proof.
  unfold no_pending, fpend. induction fs as [|f r IH]; simpl; [reflexivity|]. intros H.
  apply andb_true_iff in H as [H1 H2]. destruct (prev_lines f); [|discriminate]. simpl. apply IH. exact H2.
Qed.
Lemma fpend_upd_top fs f : fpend (upd_top fs f) = fpend (removelast fs) ++ prev_lines f.
Proof. unfold upd_top, set_last. rewrite fpend_app, fpend_one. reflexivity. Qed.
Lemma fpend_last fs tos : last_opt fs = Some tos -> fpend fs = fpend (removelast fs) ++ prev_lines tos.
Proof. intros H. rewrite (last_opt_split fs tos H) at 1. rewrite fpend_app, fpend_one. reflexivity. Qed.
Lemma fpend_upd_same fs f f' : last_opt fs = Some f -> prev_lines f' = prev_lines f -> fpend (upd_top fs f') = fpend fs.
Proof. intros L E. rewrite fpend_upd_top, (fpend_last _ f L), E. reflexivity. Qed.
Lemma fpend_nil_last fs tos : fpend fs = [] -> last_opt fs = Some tos -> prev_lines tos = [].
Proof. intros F L. rewrite (fpend_last _ _ L) in F. apply app_eq_nil in F. tauto. Qed.

(* tokenize_lines after lines_loop, in parts (tokenize_lines_finish): flush is its t1 ++ t2, end_guard its guard G7 *)
Definition flush (s : st) : list Token :=
  match contstr s with
  | [] => []
  | _ => [mkTok ERRORTOKEN (contstr s) (fst (contstr_start s)) (snd (contstr_start s)) (prefix s)]
  end ++
  match last_opt (fstack s) with
  | Some f => match prev_lines f with
              | [] => []
              | _ => [mkTok FSTRING_STRING (prev_lines f) (fst (last_start f)) (snd (last_start f)) []] end
  | None => []
  end.
Lemma flush_ords s : ords (flush s).
Proof.
  apply Forall_app. split; [destruct (contstr s)|destruct (last_opt (fstack s)) as [f|]; [destruct (prev_lines f)|]]; repeat constructor.
Qed.

Definition end_guard (s : st) : bool :=
  no_pending (removelast (fstack s)) &&
  match last_opt (fstack s) with
  | Some f => match prev_lines f with [] => true | _ => is_nil (addp s) end
  | None => true
  end.

Definition finish_lines (r : result (st * list Token)) : result (list Token) :=
  match r with
  | Err x => Err x
  | Ok (s, toks) =>
    if end_guard s
    then Ok (toks ++ flush s ++ map (fun _ => mkTok DEDENT [] (lnum s) (max_ s) []) (tl (indents s)) ++ [mkTok ENDMARKER [] (lnum s) (max_ s) (addp s)])
    else Err Guard
  end.

(* where the text pending on tos starts, or would start if some were found at `here` *)
Definition text_start (tos : fnode) (here : N * N) : N * N := match prev_lines tos with [] => here | _ => last_start tos end.

Definition with_contstr (s : st) (c : str) : st :=
  mkSt (paren s) (indents s) c (contstr_start s) (endprog s) (new_line s) (prefix s) (addp s) (fstack s) (lnum s) (max_ s).

Definition tail_of (line : str) (le : loop_end) : str := match le with Continue p => from line p | Break => [] end.

Definition indent_cond (initial : N) (is_pm : bool) : bool :=
  negb (chr_in initial [cr; nl; hash]) && (negb (initial =? bsl) || negb is_pm).

(* a walk over the token stream is a fold whose state is an option: None once a token is rejected *)
Lemma walk_app {X T} (f : option X -> T -> option X) x a b y :
  fold_left f a (Some x) = Some y -> fold_left f (a ++ b) (Some x) = fold_left f b (Some y).
Proof. intros H. rewrite fold_left_app, H. reflexivity. Qed.
Lemma walk_none {X T} (f : option X -> T -> option X) : (forall t, f None t = None) -> forall l, fold_left f l None = None.
Proof. intros H l. induction l as [|t l IH]; [reflexivity|]. cbn [fold_left]. rewrite H. exact IH. Qed.

Section Spec.
Variable C : coll.
Variable isident : str -> bool.
Variable isspace : N -> bool.

Lemma trunc_prefix : forall stack x y, trunc_by_quotes C stack x = Ok y -> exists z, x = y ++ z.
Proof.
  induction stack as [|n t IH]; intros x y H; simpl in H; [inversion H; exists []; rewrite app_nil_r; reflexivity|].
  destruct (endpat C (quote n)) as [r|]; [|discriminate].
  destruct (rmatch_at r x 0) as [[e cs]|].
  - apply IH in H as (z & Hz). exists (z ++ from x (e - len (quote n))).
    rewrite app_assoc, <- Hz. symmetry. apply from_upto.
  - apply IH. exact H.
Qed.

Lemma ffs_spec : forall stack tos line lnum pos string pos' tos',
  find_fstring_string C stack tos line lnum pos = Ok (string, pos', tos') ->
  exists s0, from line pos = s0 ++ from line pos' /\ pos' = pos + len s0 /\
    ((string = [] /\ prev_lines tos' = prev_lines tos ++ s0) \/ (string = prev_lines tos ++ s0 /\ prev_lines tos' = prev_lines tos)) /\
    (prev_lines tos ++ s0 <> [] -> last_start tos' = text_start tos (lnum, pos)).
Proof.
  intros stack tos line lnum pos string pos' tos' H. unfold find_fstring_string in H.
  match type of H with context [rmatch_at ?r line pos] => destruct (rmatch_at r line pos) as [[e cs]|] eqn:M end.
  - set (tos1 := match prev_lines tos with [] => _ | _ => tos end) in *.
    assert (T1: prev_lines tos1 = prev_lines tos /\ last_start tos1 = text_start tos (lnum, pos))
      by (unfold tos1, text_start; destruct (prev_lines tos) eqn:E; split; (reflexivity || exact E)).
    destruct T1 as (P1 & T1).
    destruct (trunc_by_quotes C stack (sub line pos e)) as [string0|] eqn:TQ; [|discriminate].
    destruct (trunc_prefix _ _ _ TQ) as (z & Hz).
    assert (F: from line pos = string0 ++ from line (pos + len string0)).
    { rewrite <- from_from, (sub_from line pos e (rmatch_ge_pos _ _ _ _ _ M)), Hz, <- app_assoc. symmetry. f_equal. apply from_len_app. }
    exists string0. destruct (ends_nl string0); inversion H; subst; cbn [prev_lines last_start]; rewrite ?P1; auto 6.
  - inversion H; subst. exists []. rewrite app_nil_r, N.add_0_r. repeat split; [auto|].
    unfold text_start. destruct (prev_lines tos'); [contradiction|reflexivity].
Qed.

Lemma lstrip_le : forall r, lstrip_len isspace r <= len r.
Proof. induction r as [|c r IH]; cbn [lstrip_len]; [rewrite len_nil; lia|]. rewrite len_cons. destruct (isspace c); lia. Qed.

(* the white space ws before the quote goes into the prefix of the FSTRING_END token *)
Lemma close_spec : forall stack before rest lnum col ap tok qlen remaining,
  close_fstring isspace before stack rest lnum col ap = Ok (Some (tok, qlen, remaining)) ->
  exists ws q, tok = mkTok FSTRING_END q lnum (col + len ws) (ap ++ ws) /\ qlen = len ws + len q /\
    rest = ws ++ q ++ from rest qlen /\ fpend (before ++ stack) = [] /\ fpend remaining = [].
Proof.
  induction stack as [|n t IH]; intros before rest lnum col ap tok qlen remaining H; simpl in H; [discriminate|].
  pose proof (lstrip_le rest) as KL. set (k := lstrip_len isspace rest) in *.
  destruct (starts_with (quote n) (from rest k)) eqn:SW.
  - destruct (prev_lines n) eqn:PL; [|discriminate].
    destruct (forallb (fun f => match prev_lines f with [] => true | _ => false end) (before ++ t)) eqn:G; [|discriminate].
    inversion H; subst. clear H. exists (upto rest k), (quote n).
    apply starts_with_app in SW as (r & Hr). apply no_pending_fpend in G. rewrite fpend_app in G |- *. apply app_eq_nil in G as [G1 G2].
    rewrite len_upto, N.min_l by exact KL.
    repeat split; [apply N.add_comm| |rewrite G1; unfold fpend; simpl; rewrite PL; exact G2|exact G1].
    rewrite <- (from_upto rest k) at 1. f_equal. rewrite N.add_comm, <- from_from, Hr, from_len_app. reflexivity.
  - apply IH in H as (ws & q & H). exists ws, q. rewrite <- app_assoc in H. exact H.
Qed.

(* The f-string part of a round (fs_part), for a scan at column pos: the text s0 that _find_fstring_string finds there
   is joined to the text pending on the top frame or emitted with it, and _close_fstring_if_necessary emits the end of
   the frame whose quote comes next, after white space ws, which happens only when no text is pending. *)
Inductive fround (line : str) (s : st) (pos : N) : st -> list Token -> option loop_end -> N -> Prop :=
| fround_idle : fround line s pos s [] None pos
| fround_text tos tos' s0 : last_opt (fstack s) = Some tos -> from line pos = s0 ++ from line (pos + len s0) ->
    prev_lines tos' = prev_lines tos ++ s0 -> (prev_lines tos' <> [] -> last_start tos' = text_start tos (lnum s, pos)) ->
    fround line s pos (upd_f s (upd_top (fstack s) tos')) [] (if pos + len s0 =? max_ s then Some Break else None) (pos + len s0)
| fround_string tos tos' s0 : last_opt (fstack s) = Some tos -> from line pos = s0 ++ from line (pos + len s0) ->
    prev_lines tos ++ s0 <> [] -> prev_lines tos' = [] -> addp s = [] -> fpend (removelast (fstack s)) = [] ->
    fround line s pos (upd_f s (upd_top (fstack s) tos'))
           [mkTok FSTRING_STRING (prev_lines tos ++ s0) (fst (text_start tos (lnum s, pos))) (snd (text_start tos (lnum s, pos))) []]
           (Some (Continue (pos + len s0))) (pos + len s0)
| fround_end ws q fs : from line pos = ws ++ q ++ from line (pos + (len ws + len q)) -> fpend (fstack s) = [] -> fpend fs = [] ->
    fround line s pos (upd_addp (upd_f s fs) []) [mkTok FSTRING_END q (lnum s) (pos + len ws) (addp s ++ ws)]
           (Some (Continue (pos + (len ws + len q)))) (pos + (len ws + len q)).

Lemma fs_part_round s line pos s1 toks oe p : fs_part C isspace s line pos = Ok (s1, toks, oe, p) -> fround line s pos s1 toks oe p.
Proof.
  unfold fs_part, fs_text. intros H. destruct (last_opt (fstack s)) as [tos|] eqn:L; [|inversion H; constructor].
  assert (END: forall fs' pa tok ql rem, close_fstring isspace [] fs' (from line pa) (lnum s) pa (addp s) = Ok (Some (tok, ql, rem)) ->
            (fpend fs' = [] -> fpend (fstack s) = [] /\ pa = pos) ->
            fround line s pos (upd_addp (upd_f s rem) []) [tok] (Some (Continue (pa + ql))) (pa + ql)).
  { intros fs' pa tok ql rem CL X. apply close_spec in CL as (ws & q & -> & -> & FR & F1 & F2). destruct (X F1) as (F0 & ->).
    rewrite from_from in FR. apply fround_end; assumption. }
  destruct (negb (in_expr tos)).
  2:{ destruct (close_fstring _ _ _ _ _ _ _) as [[[[tok ql] rem]|]|] eqn:CL; [| |discriminate]; inversion H; subst; [|constructor].
      apply (END _ _ _ _ _ CL). auto. }
  destruct (find_fstring_string C (fstack s) tos line (lnum s) pos) as [[[string pos'] tos']|] eqn:FF; [|discriminate].
  destruct (ffs_spec _ _ _ _ _ _ _ _ FF) as (s0 & F & -> & D & ST).
  destruct string as [|x string].
  - assert (P: prev_lines tos' = prev_lines tos ++ s0).
    { destruct D as [[_ D]|[D ->]]; [exact D|]. symmetry in D. apply app_eq_nil in D as [-> ->]. reflexivity. }
    assert (R: fround line s pos (upd_f s (upd_top (fstack s) tos')) [] (if pos + len s0 =? max_ s then Some Break else None) (pos + len s0))
      by (apply (fround_text _ _ _ tos); try assumption; rewrite P; exact ST).
    destruct (pos + len s0 =? max_ s); [inversion H; subst; exact R|].
    destruct (close_fstring _ _ _ _ _ _ _) as [[[[tok ql] rem]|]|] eqn:CL; [| |discriminate]; inversion H; subst; [|exact R].
    (* a frame closes only when no text is pending: none was found *)
    apply (END _ _ _ _ _ CL). cbn [fstack upd_f]. rewrite fpend_upd_top, P, (fpend_last _ _ L). intros E.
    apply app_eq_nil in E as [-> E]. apply app_eq_nil in E as [-> ->]. split; [reflexivity|apply N.add_0_r].
  - destruct (is_nil (addp s) && no_pending (removelast (fstack s))) eqn:G; [|discriminate]. apply andb_true_iff in G as [G1 G2].
    destruct D as [[D _]|[D _]]; [discriminate|]. assert (NE: prev_lines tos ++ s0 <> []) by (rewrite <- D; discriminate).
    inversion H; subst. rewrite D, (ST NE).
    apply (fround_string _ _ _ tos); try assumption; try reflexivity; [destruct (addp s); [reflexivity|discriminate]|exact (no_pending_fpend _ G2)].
Qed.

Lemma fround_frame line s pos s1 toks oe p : fround line s pos s1 toks oe p ->
  contstr s1 = contstr s /\ max_ s1 = max_ s /\ lnum s1 = lnum s /\ indents s1 = indents s /\ ords toks.
Proof. destruct 1; repeat split; repeat constructor. Qed.

Lemma fround_next line s pos s1 toks oe p : fround line s pos s1 toks oe p ->
  match oe with Some (Continue q) => q = p | Some Break => p = max_ s | None => True end.
Proof. destruct 1; try reflexivity. destruct (N.eqb_spec (pos + len s0) (max_ s)); [assumption|exact I]. Qed.

(* the piece being collected, found, began at column col = sc + j; i counts the characters seen *)
Lemma split_illegal_place : forall chars i j col found illegal pfx sl sc, i = j + len found -> col = sc + j -> chars <> [] \/ found <> [] ->
  exists ps, split_illegal isident chars i found illegal (sl, col) pfx sl sc = place sl col pfx ps /\
    concat (map snd ps) = found ++ chars /\ pieces ps.
Proof.
  induction chars as [|c rest IH]; intros i j col found illegal pfx sl sc E EC NE.
  - destruct found; [destruct NE; contradiction|]. exists [(if illegal then ERRORTOKEN else NAME, n :: found)].
    repeat split; [discriminate|destruct illegal; repeat constructor].
  - assert (NEW: forall ill t0, ordinary t0 = true -> exists ps,
      mkTok t0 found sl col pfx :: split_illegal isident rest (i + 1) [c] ill (sl, sc + i) [] sl sc = place sl col pfx ps /\
      concat (map snd ps) = found ++ c :: rest /\ pieces ps).
    { intros ill t0 O. destruct (IH (i + 1) i (sc + i) [c] ill [] sl sc) as (ps & E1 & E2 & _ & F); [rewrite len_cons, len_nil; lia|reflexivity|right; discriminate|].
      exists ((t0, found) :: ps). cbn [place map snd concat]. rewrite E1, E2. subst i col. rewrite N.add_assoc.
      repeat split; [discriminate|constructor; assumption]. }
    assert (GROW: forall ill, exists ps, split_illegal isident rest (i + 1) (found ++ [c]) ill (sl, col) pfx sl sc = place sl col pfx ps /\
      concat (map snd ps) = found ++ c :: rest /\ pieces ps).
    { intros ill. destruct (IH (i + 1) j col (found ++ [c]) ill pfx sl sc) as (ps & E1 & E2 & P); [rewrite len_app, len_cons, len_nil; lia|exact EC|right; destruct found; discriminate|].
      exists ps. rewrite <- app_assoc in E2. split; [exact E1|split; [exact E2|exact P]]. }
    cbn [split_illegal fst snd]. destruct illegal.
    + destruct (isident [c]); [apply (NEW false ERRORTOKEN eq_refl)|apply GROW].
    + destruct (isident (found ++ [c])); [apply GROW|]. destruct found; [apply (GROW true)|apply (NEW true NAME eq_refl)].
Qed.

(* that the white space ws starts at pos and the token follows it rests on the two-group shape of the regex *)
Lemma pm_info_spec s1 line pos pmi start initial : pm_info C s1 line pos = Ok (pmi, start, initial) ->
  match pmi with
  | Some (pfx, a2, b2, token, has3) =>
    start = a2 /\ token = sub line a2 b2 /\ initial = match token with c :: _ => c | [] => 0 end /\
    exists ws, pfx = addp s1 ++ ws /\
      (shape12 (pseudo C) = true -> from line pos = ws ++ from line a2 /\ a2 <= b2 /\ (pos <= len line -> b2 <= len line))
  | None => exists cs, rmatch_at (whitespace C) line pos = Some (start, cs)
  end.
Proof.
  unfold pm_info. intros H.
  match type of H with context [match ?sl with Ok _ => _ | Err _ => _ end] => destruct sl as [slen|]; [|discriminate] end.
  destruct (rmatch_at (pseudo C) (upto line slen) pos) as [[e cs]|] eqn:M.
  - destruct (grp 1 cs) as [[a1 b1]|] eqn:G1; [|discriminate]. destruct (grp 2 cs) as [[a2' b2']|] eqn:G2; [|discriminate].
    inversion H; subst. repeat split. exists (sub line a1 b1). split; [reflexivity|]. intros SH.
    destruct (shape12_spans _ _ _ _ _ SH M) as (j & G1' & G2' & L1 & L2). rewrite G1 in G1'. rewrite G2 in G2'.
    inversion G1'; inversion G2'; subst. split; [apply sub_from; exact L1|split; [exact L2|]].
    intros PL. apply rmatch_max in M. rewrite len_upto in M. lia.
  - destruct (rmatch_at (whitespace C) line pos) as [[e cs]|]; [|discriminate]. destruct (nth_error line (N.to_nat e)); [|discriminate].
    inversion H; subst. exists cs. reflexivity.
Qed.

Lemma indent_part_blks s2 is_pm initial start spos s3 toks2 :
  indent_part s2 is_pm initial start spos = Ok (s3, toks2) ->
  blks spos (length (indents s2)) toks2 (length (indents s3)) /\ (indent_cond initial is_pm = false -> toks2 = []) /\
  contstr s3 = contstr s2 /\ addp s3 = addp s2 /\ fstack s3 = fstack s2 /\ max_ s3 = max_ s2 /\ prefix s3 = prefix s2 /\ lnum s3 = lnum s2.
Proof.
  unfold indent_part, indent_cond. intros H.
  destruct (new_line s2); cbn [andb] in H; [|inversion H; subst; split; [apply blks_nil|repeat split]].
  destruct (negb (chr_in initial [cr; nl; hash]) && (negb (initial =? bsl) || negb is_pm)); [|inversion H; subst; split; [apply blks_nil|repeat split]].
  cbn [paren fstack indents] in H.
  destruct ((paren s2 =? 0) && match fstack s2 with [] => true | _ => false end); [|inversion H; subst; split; [apply blks_nil|repeat split]].
  destruct (last_opt (indents s2)) as [top|]; [|discriminate].
  destruct (top <? start).
  - destruct (dedent_if_necessary start _ spos (indents s2 ++ [start])) as [[inds' t1]|] eqn:D; [|discriminate].
    inversion H; subst. apply dedent_blks in D. rewrite app_length, Nat.add_1_r in D.
    split; [apply blks_indent; exact D|split; [discriminate|repeat split]].
  - destruct (dedent_if_necessary start _ spos (indents s2)) as [[inds' t1]|] eqn:D; [|discriminate].
    inversion H; subst. apply dedent_blks in D. split; [exact D|split; [discriminate|repeat split]].
Qed.

(* One round of the loop over a line, after its f-string part: the prefix pfx ends at column start of line ln, where the
   block tokens are emitted for a stack of height h. *)
Inductive round (line : str) (ln : N) (pfx : str) (start : N) (h : nat) : st -> list Token -> loop_end -> Prop :=
| round_toks s' bl ps q :       (* tokens: one, or the pieces of a name with illegal characters *)
    blks (ln, start) h bl (length (indents s')) -> pieces ps ->
    from line start = concat (map snd ps) ++ from line q -> start < q -> contstr s' = [] -> addp s' = [] ->
    round line ln pfx start h s' (bl ++ place ln start pfx ps) (Continue q)
| round_skip s' le :            (* nothing is emitted, not even block tokens: the text joins the additional prefix *)
    length (indents s') = h -> contstr s' = [] -> addp s' ++ tail_of line le = pfx ++ from line start ->
    round line ln pfx start h s' [] le
| round_open s' bl :            (* a string that goes on in the next line *)
    blks (ln, start) h bl (length (indents s')) -> contstr s' = from line start -> from line start <> [] ->
    contstr_start s' = (ln, start) -> prefix s' = pfx -> addp s' = [] ->
    round line ln pfx start h s' bl Break.

(* what a round leaves, for body_round: the tokens after toks1 form a round, the line data of the state are kept, and the
   loop goes on at a column inside the line provided lim is one (lim: where the match ended, or 0 when nothing matched) *)
Definition ends_round line ln pfx start h (mx : N) (toks1 : list Token) (lim : N) (s' : st) (out : list Token) (le : loop_end) : Prop :=
  exists toksB, out = toks1 ++ toksB /\ round line ln pfx start h s' toksB le /\
    max_ s' = mx /\ lnum s' = ln /\ fpend (fstack s') = [] /\ (lim <= len line -> forall q, le = Continue q -> q <= len line).

Lemma error_token_round s3 toks1 toks2 line pos start cs h s' out le :
  error_token C s3 (toks1 ++ toks2) line pos (lnum s3, start) = Ok (s', out, le) ->
  rmatch_at (whitespace C) line pos = Some (start, cs) -> blks (lnum s3, start) h toks2 (length (indents s3)) ->
  contstr s3 = [] -> fpend (fstack s3) = [] ->
  ends_round line (lnum s3) (addp s3 ++ sub line pos start) start h (max_ s3) toks1 0 s' out le /\
  from line pos = sub line pos start ++ from line start.
Proof.
  unfold error_token. intros H M B2 CS FP. rewrite M in H.
  match type of H with context [match ?dd with Ok _ => _ | Err _ => _ end] => destruct dd as [[inds t3]|] eqn:D; [|discriminate] end.
  destruct (nth_error line (N.to_nat start)) as [c|] eqn:NT; [|discriminate].
  inversion H; subst s' out le. clear H.
  assert (B3: blks (lnum s3, start) (length (indents s3)) t3 (length inds)).
  { destruct (new_line s3 && (paren s3 =? 0) && match fstack s3 with [] => true | _ => false end); [eapply dedent_blks; exact D|inversion D; apply blks_nil]. }
  split; [|apply sub_from; exact (rmatch_ge_pos _ _ _ _ _ M)].
  exists ((toks2 ++ t3) ++ [mkTok ERRORTOKEN [c] (lnum s3) start (addp s3 ++ sub line pos start)]).
  split; [rewrite <- !app_assoc; reflexivity|]. split; [|repeat split; try assumption].
  - apply (round_toks _ _ _ _ _ _ _ [(ERRORTOKEN, [c])]); try reflexivity; [exact (blks_app _ _ _ _ _ _ B2 B3)|repeat constructor; discriminate|apply (from_nth _ _ _ NT)|lia|exact CS].
  - intros _ q X. inversion X; subst. apply nth_error_lt in NT. lia.
Qed.

Lemma classify_round s3 toks1 toks2 line pfx start epos token has3 initial ln h s' out le :
  classify C isident s3 (toks1 ++ toks2) line pfx start epos token has3 initial (ln, start) = Ok (s', out, le) -> lnum s3 = ln ->
  blks (ln, start) h toks2 (length (indents s3)) -> (indent_cond initial true = false -> toks2 = []) ->
  contstr s3 = [] -> addp s3 = [] -> fpend (fstack s3) = [] -> prefix s3 = pfx ->
  token = sub line start epos -> token <> [] -> initial = match token with c :: _ => c | [] => 0 end ->
  ends_round line ln pfx start h (max_ s3) toks1 epos s' out le.
Proof.
  intros H LN B2 IC CS AP FP PF TK NE IN.
  (* in constructor form the fields classify leaves alone are read off *)
  destruct s3 as [pa i c cs0 ep nw px ap fs ln0 mx]. cbn [lnum indents contstr addp fstack prefix max_] in *. subst ln c ap px.
  assert (LT: start < epos) by (destruct token; [contradiction|eapply sub_cons_lt; symmetry; exact TK]).
  assert (FR: from line start = token ++ from line epos) by (rewrite TK; apply sub_from; lia).
  assert (HD: from line start = [initial] ++ from line (start + 1)).
  { destruct token; [contradiction|]. subst initial. apply from_nth. eapply sub_head. symmetry. exact TK. }
  assert (QE: epos <= len line -> forall q, Continue epos = Continue q -> q <= len line) by (intros EL q X; inversion X; subst; exact EL).
  assert (TOK: forall bl ps q p' i' cs' ep' nl' fs', blks (ln0, start) (length i) bl (length i') -> pieces ps ->
     from line start = concat (map snd ps) ++ from line q -> start < q -> (epos <= len line -> q <= len line) -> fpend fs' = [] ->
     ends_round line ln0 pfx start h mx toks1 epos (mkSt p' i' [] cs' ep' nl' pfx [] fs' ln0 mx)
                ((toks1 ++ toks2) ++ bl ++ place ln0 start pfx ps) (Continue q)).
  { intros bl ps q p' i' cs' ep' nl' fs' B P F L QB f0. exists ((toks2 ++ bl) ++ place ln0 start pfx ps).
    split; [rewrite <- !app_assoc; reflexivity|]. split; [apply round_toks; try assumption; try reflexivity; exact (blks_app _ _ _ _ _ _ B2 B)|].
    repeat split; try assumption. intros EL q0 X. inversion X; subst. exact (QB EL). }
  assert (STD: forall t tk q p' cs' ep' nl' fs', ordinary t = true -> from line start = tk ++ from line q -> start < q ->
     (epos <= len line -> q <= len line) -> fpend fs' = [] ->
     ends_round line ln0 pfx start h mx toks1 epos (mkSt p' i [] cs' ep' nl' pfx [] fs' ln0 mx)
                ((toks1 ++ toks2) ++ [mkTok t tk ln0 start pfx]) (Continue q)).
  { intros t tk q p' cs' ep' nl' fs' O F. apply (TOK [] [(t, tk)]); [apply blks_nil|repeat constructor; [discriminate|exact O]|].
    cbn [map snd concat]. rewrite app_nil_r. exact F. }
  assert (NOP: forall p' cs' ep' nl' a' fs' l0, indent_cond initial true = false -> a' ++ tail_of line l0 = pfx ++ from line start ->
     (epos <= len line -> forall q, l0 = Continue q -> q <= len line) -> fpend fs' = [] ->
     ends_round line ln0 pfx start h mx toks1 epos (mkSt p' i [] cs' ep' nl' pfx a' fs' ln0 mx) (toks1 ++ toks2) l0).
  { intros p' cs' ep' nl' a' fs' l0 ic T QB f0. exists []. rewrite (IC ic) in B2 |- *. apply blks_nil_inv in B2.
    split; [reflexivity|]. split; [apply round_skip; [symmetry; exact B2|reflexivity|exact T]|]. repeat split; assumption. }
  assert (CONT: forall p' ep' nl' fs', fpend fs' = [] ->
     ends_round line ln0 pfx start h mx toks1 epos (mkSt p' i (from line start) (ln0, start) ep' nl' pfx [] fs' ln0 mx) (toks1 ++ toks2) Break).
  { intros p' ep' nl' fs' f0. exists toks2. split; [reflexivity|]. split.
    - apply round_open; try reflexivity; [exact B2|]. rewrite FR. destruct token; [contradiction|discriminate].
    - repeat split; try assumption. intros _ q X. discriminate. }
  unfold classify, upd_f, upd_addp in H. cbn [fst snd paren indents contstr contstr_start endprog new_line prefix addp fstack lnum max_] in H.
  destruct (chr_in initial digits || ((initial =? dot) && negb (str_eqb token [dot]) && negb (str_eqb token [dot; dot; dot]))).
  { inversion H; subst s' out le. apply STD; auto. }
  destruct has3.
  { (* names and keywords; a keyword that always starts a statement closes brackets and f-strings first *)
    match type of H with context [match ?brk with Ok _ => _ | Err _ => _ end] => destruct brk as [[s4 t4]|] eqn:BRK; [|discriminate] end.
    assert (B: exists pa' i' fs', s4 = mkSt pa' i' [] cs0 ep nw pfx [] fs' ln0 mx /\ blks (ln0, start) (length i) t4 (length i') /\ fpend fs' = []).
    { destruct (mem_str token (always_break C) && (negb match fs with [] => true | _ => false end || negb (pa =? 0))).
      - destruct (rmatch_at (ws_dollar C) (upto line start) 0) as [[e cs]|].
        + destruct (dedent_if_necessary e _ (ln0, start) _) as [[inds t]|] eqn:D; [|discriminate]. inversion BRK; subst.
          apply dedent_blks in D. eexists _, _, _. split; [reflexivity|split; [exact D|reflexivity]].
        + inversion BRK; subst. eexists _, _, _. split; [reflexivity|split; [apply blks_nil|reflexivity]].
      - inversion BRK; subst. eexists _, _, _. split; [reflexivity|split; [apply blks_nil|exact FP]]. }
    destruct B as (pa' & i' & fs' & -> & B4 & f4).
    destruct (isident token); inversion H; subst s' out le.
    - apply (TOK t4 [(NAME, token)]); auto; [repeat constructor; discriminate|]. cbn [map snd concat]. rewrite app_nil_r. exact FR.
    - destruct (split_illegal_place token 0 0 start [] false pfx ln0 start eq_refl (eq_sym (N.add_0_r _)) (or_introl NE)) as (ps & -> & E & P).
      apply TOK; auto. rewrite E. exact FR. }
  destruct (chr_in initial [cr; nl]) eqn:CN.
  { assert (ic: indent_cond initial true = false).
    { unfold indent_cond, chr_in in *. cbn [existsb] in *. destruct (initial =? cr); [reflexivity|]. destruct (initial =? nl); [reflexivity|discriminate]. }
    set (fs1 := if existsb (fun f => negb (allow_multiline f)) fs then [] else fs) in *.
    assert (FS: fpend fs1 = []) by (unfold fs1; destruct (existsb _ fs); [reflexivity|exact FP]).
    destruct (negb nw && (pa =? 0) && match fs1 with [] => true | _ => false end); inversion H; subst s' out le.
    - apply STD; auto.
    - apply NOP; auto. cbn [tail_of]. rewrite FR, <- app_assoc. reflexivity. }
  destruct (initial =? hash) eqn:IH.
  { assert (ic: indent_cond initial true = false).
    { unfold indent_cond, chr_in. cbn [existsb]. rewrite IH, !orb_true_r. reflexivity. }
    destruct (match last_opt fs with Some f => in_expr f | None => false end); inversion H; subst s' out le.
    - (* '#' inside an f-string expression: one error token *) apply STD; auto; lia.
    - apply NOP; auto. cbn [tail_of]. rewrite FR, <- app_assoc. reflexivity. }
  destruct (mem_str token (triple_quoted C)).
  { destruct (endpat C token) as [r|]; [|discriminate].
    destruct (rmatch_at r line epos) as [[e cs]|] eqn:M; inversion H; subst s' out le.
    - pose proof (rmatch_ge_pos _ _ _ _ _ M) as GE. apply STD; auto; [apply sub_from; lia|lia|].
      intros EL. apply (rmatch_le_len _ _ _ _ _ M EL).
    - apply CONT; auto. }
  destruct (mem_str [initial] (single_quoted C) || mem_str (upto token 2) (single_quoted C) || mem_str (upto token 3) (single_quoted C)).
  { destruct (match last_chr token with Some c => chr_in c [cr; nl] | None => false end); inversion H; subst s' out le;
      [apply CONT; auto|apply STD; auto]. }
  destruct (assoc token (fstring_map C)) as [q|].
  { inversion H; subst s' out le. apply STD; auto. rewrite fpend_app, FP, fpend_one. reflexivity. }
  destruct ((initial =? bsl) && (str_eqb (from line start) [bsl; nl] || str_eqb (from line start) [bsl; cr; nl] || str_eqb (from line start) [bsl; cr])) eqn:BS.
  { apply andb_true_iff in BS as [BS _]. inversion H; subst s' out le. apply NOP; auto.
    - unfold indent_cond. rewrite BS. apply andb_false_r.
    - cbn [tail_of app]. apply app_nil_r.
    - intros _ q X. discriminate. }
  (* operators; brackets and ':' are counted on the top f-string frame, or on the bracket level *)
  destruct (last_opt fs) as [f|] eqn:LO.
  - destruct (is_substr token [40; 91; 123]).
    { inversion H; subst s' out le. apply STD; auto. rewrite (fpend_upd_same _ f _ LO) by reflexivity. exact FP. }
    destruct (is_substr token [41; 93; 125]).
    { inversion H; subst s' out le. apply STD; auto. rewrite (fpend_upd_same _ f _ LO); [exact FP|].
      destruct ((parens f - 1 =? 0)%Z); [reflexivity|]. destruct ((parens f - 1 <? spec_count f)%Z); reflexivity. }
    destruct (starts_with [colon] token && (parens f - spec_count f =? 1)%Z) eqn:CO; inversion H; subst s' out le; [|apply STD; auto].
    apply andb_true_iff in CO as [CO _]. apply starts_with_app in CO as (r & Hr). rewrite Hr in IN. cbn in IN. rewrite IN in HD.
    apply STD; auto; [lia|lia|]. rewrite (fpend_upd_same _ f _ LO) by reflexivity. exact FP.
  - destruct (is_substr token [40; 91; 123]); [inversion H; subst s' out le; apply STD; auto|].
    destruct (is_substr token [41; 93; 125]); inversion H; subst s' out le; apply STD; auto.
Qed.

Lemma body_round s line pos s' toks le :
  body C isident isspace s line pos = Ok (s', toks, le) -> contstr s = [] ->
  exists s1 toks1 oe p, fround line s pos s1 toks1 oe p /\
    match oe with
    | Some e => s' = s1 /\ toks = toks1 /\ le = e
    | None => fpend (fstack s1) = [] /\ exists ws start lim,
        ends_round line (lnum s1) (addp s1 ++ ws) start (length (indents s1)) (max_ s1) toks1 lim s' toks le /\
        (shape12 (pseudo C) = true -> from line p = ws ++ from line start /\ (p <= len line -> lim <= len line))
    end.
Proof.
  intros H CS. unfold body in H.
  destruct (fs_part C isspace s line pos) as [[[[s1 toks1] oe] p]|] eqn:FS; [|discriminate].
  apply fs_part_round in FS. exists s1, toks1, oe, p. split; [exact FS|].
  destruct (fround_frame _ _ _ _ _ _ _ FS) as (C1 & _). rewrite CS in C1.
  destruct oe as [e|]; [inversion H; subst; repeat split|].
  destruct (negb (no_pending (fstack s1))) eqn:G9; [discriminate|]. apply negb_false_iff, no_pending_fpend in G9.
  split; [exact G9|].
  destruct (pm_info C s1 line p) as [[[pmi start] initial]|] eqn:PM; [|discriminate].
  destruct pmi as [[[[[pfx a2] epos] token] has3]|].
  - destruct (pm_info_spec _ _ _ _ _ _ PM) as (Hs & Ht & Hi & ws & Hp & SH). subst a2.
    destruct token as [|c tk].
    + destruct pfx as [|x pfx']; [discriminate|]. destruct (epos =? len line) eqn:G8; [|discriminate]. apply N.eqb_eq in G8.
      inversion H; subst s' toks le. exists ws, epos, 0. split; [exists []; split; [symmetry; apply app_nil_r|]|].
      * split; [apply round_skip; [reflexivity|exact C1|]|repeat split; [exact G9|discriminate]].
        cbn [addp tail_of]. rewrite Hp, from_ge by lia. reflexivity.
      * intros X. destruct (SH X) as (F1 & LE & _). split; [|intros _; apply N.le_0_l].
        rewrite F1. f_equal. rewrite (sub_from line start epos LE), <- Ht. reflexivity.
    + set (s2 := mkSt (paren s1) (indents s1) (contstr s1) (contstr_start s1) (endprog s1) (new_line s1) pfx [] (fstack s1) (lnum s1) (max_ s1)) in *.
      destruct (indent_part s2 true initial start (lnum s2, start)) as [[s3 toks2]|] eqn:IP; [|discriminate].
      destruct (indent_part_blks _ _ _ _ _ _ _ IP) as (B2 & IC & I2 & I3 & I4 & I5 & I6 & I7).
      exists ws, start, epos. rewrite <- Hp. split; [|intros X; destruct (SH X) as (F1 & _ & EB); exact (conj F1 EB)].
      cbn [s2 max_] in I5. rewrite <- I5. apply (classify_round _ _ _ _ _ _ _ _ _ _ _ _ _ _ _ H I7 B2 IC);
        [rewrite I2; exact C1|rewrite I3; reflexivity|rewrite I4; exact G9|rewrite I6; reflexivity|exact Ht|discriminate|exact Hi].
  - destruct (indent_part s1 false initial start (lnum s1, start)) as [[s3 toks2]|] eqn:IP; [|discriminate].
    destruct (indent_part_blks _ _ _ _ _ _ _ IP) as (B2 & _ & I2 & I3 & I4 & I5 & _ & I7).
    destruct (pm_info_spec _ _ _ _ _ _ PM) as (cs & M). rewrite <- I7 in H, B2.
    destruct (error_token_round _ _ _ _ _ _ _ _ _ _ _ H M B2) as (ER & F1); [rewrite I2; exact C1|rewrite I4; exact G9|].
    rewrite I7, I3, I5 in ER. exists (sub line p start), start, 0. split; [exact ER|]. intros _. split; [exact F1|intros _; apply N.le_0_l].
Qed.

Lemma body_cont s line pos s' toks le :
  body C isident isspace s line pos = Ok (s', toks, le) -> contstr s = [] -> le <> Break -> contstr s' = [].
Proof.
  intros H CS NB. destruct (body_round _ _ _ _ _ _ H CS) as (s1 & toks1 & oe & p & FS & R).
  destruct oe as [e|].
  - destruct R as (-> & _). apply fround_frame in FS as (C1 & _). rewrite C1. exact CS.
  - destruct R as (_ & ws & start & lim & (toksB & _ & R & _) & _). destruct R; [assumption ..|contradiction].
Qed.

(* How line_core enters a line: no string is open; the open string ends at column e, where the scan goes on after the
   STRING token; the string takes the whole line. *)
Inductive line_entry (line : str) (s : st) (pos : N) (s' : st) (toks : list Token) : Prop :=
| entry_scan fuel : contstr s = [] -> scan C isident isspace fuel s line pos [] = Ok (s', toks) -> line_entry line s pos s' toks
| entry_string fuel e : contstr s <> [] -> e <= len line ->
    scan C isident isspace fuel (with_contstr s []) line e
         [mkTok STRING (contstr s ++ upto line e) (fst (contstr_start s)) (snd (contstr_start s)) (prefix s)] = Ok (s', toks) ->
    line_entry line s pos s' toks
| entry_more : contstr s <> [] -> s' = with_contstr s (contstr s ++ line) -> toks = [] -> line_entry line s pos s' toks.

Lemma line_core_entry s line pos s' toks : line_core C isident isspace s line pos = Ok (s', toks) -> line_entry line s pos s' toks.
Proof.
  unfold line_core. intros H. remember (contstr s) as c eqn:CS. destruct c as [|cc ct]; [exact (entry_scan _ _ _ _ _ _ (eq_sym CS) H)|].
  assert (NE: contstr s <> []) by (rewrite <- CS; discriminate). rewrite CS in H.
  destruct (endprog s) as [r|] eqn:EP; [|discriminate]. destruct (rmatch_at r line 0) as [[e cs]|] eqn:M.
  - eapply (entry_string _ _ _ _ _ _ e NE (proj2 (rmatch_le_len _ _ _ _ _ M (N.le_0_l _)))). unfold with_contstr. rewrite EP. exact H.
  - inversion H. apply entry_more; [exact NE|unfold with_contstr; rewrite EP; reflexivity|reflexivity].
Qed.

Lemma tokenize_lines_finish lines inds sl sc first :
  tokenize_lines C isident isspace lines inds sl sc first =
  finish_lines (lines_loop C isident isspace (mkSt 0 inds [] (0, 0) None true [] [] [] (sl - 1) 0) lines first sc []).
Proof.
  unfold tokenize_lines, finish_lines, end_guard, flush. destruct (lines_loop _ _ _ _ _ _ _ _) as [[s t]|]; [|reflexivity].
  cbv zeta. rewrite <- (app_assoc _ _ (map _ _ ++ _)). destruct (last_opt (fstack s)) as [f|]; [destruct (prev_lines f)|]; reflexivity.
Qed.

Lemma tokenize_lines_tail lines inds sl sc first toks : tokenize_lines C isident isspace lines inds sl sc first = Ok toks ->
  exists s out bl, lines_loop C isident isspace (mkSt 0 inds [] (0, 0) None true [] [] [] (sl - 1) 0) lines first sc [] = Ok (s, out) /\
    toks = out ++ flush s ++ bl ++ [mkTok ENDMARKER [] (lnum s) (max_ s) (addp s)] /\ blks (lnum s, max_ s) (S (length (tl (indents s)))) bl 1 /\
    fpend (removelast (fstack s)) = [] /\ (forall f, last_opt (fstack s) = Some f -> prev_lines f <> [] -> addp s = []).
Proof.
  rewrite tokenize_lines_finish. destruct (lines_loop _ _ _ _ _ _ _ _) as [[s out]|]; [|discriminate]. cbn [finish_lines].
  destruct (end_guard s) eqn:G; [|discriminate]. apply andb_true_iff in G as [G1 G2].
  intros H. inversion H. exists s, out, (map (fun _ => mkTok DEDENT [] (lnum s) (max_ s) []) (tl (indents s))).
  split; [reflexivity|]. split; [reflexivity|]. split; [apply blks_dedents|]. split; [exact (no_pending_fpend _ G1)|].
  intros f L P. rewrite L in G2. destruct (prev_lines f); [contradiction|]. destruct (addp s); [reflexivity|discriminate].
Qed.

Definition bom_of (first : bool) (l : str) : str :=
  match l with c :: _ => if first && (c =? bom) then [bom] else [] | [] => [] end.
Lemma bom_of_split first l :
  l = bom_of first l ++ from l (len (bom_of first l)) /\ (bom_of first l = [] \/ first = true /\ bom_of first l = [bom]).
Proof.
  unfold bom_of. destruct l as [|c t]; [split; [reflexivity|left; reflexivity]|]. destruct first; [|split; [reflexivity|left; reflexivity]].
  destruct (c =? bom) eqn:E; [|split; [reflexivity|left; reflexivity]]. apply N.eqb_eq in E. subst c. split; [reflexivity|right; split; reflexivity].
Qed.
Lemma line_step_core s l first sc : let w := bom_of first l in let line := from l (len w) in let c := if first then sc else 0 in
  line_step C isident isspace s l first sc =
  line_core C isident isspace (mkSt (paren s) (indents s) (contstr s) (contstr_start s) (endprog s) (new_line s) (prefix s)
                                    (match w with [] => addp s | _ => w end) (fstack s) (lnum s + 1) (len line + c))
            (repeat 94 (N.to_nat c) ++ line) c.
Proof.
  unfold line_step, bom_of. destruct first; [destruct l as [|x t]; [|destruct (x =? bom)]|destruct l];
    cbn; rewrite ?N.add_0_r; reflexivity.
Qed.
Lemma line_step_core0 s l first : let w := bom_of first l in let line := from l (len w) in
  line_step C isident isspace s l first 0 =
  line_core C isident isspace (mkSt (paren s) (indents s) (contstr s) (contstr_start s) (endprog s) (new_line s) (prefix s)
                                    (match w with [] => addp s | _ => w end) (fstack s) (lnum s + 1) (len line)) line 0.
Proof. cbv zeta. rewrite line_step_core. destruct first; cbn [N.to_nat repeat app]; rewrite N.add_0_r; reflexivity. Qed.

(* A fold over the token stream (walk) with an invariant J between its state and the tokenizer's: if body and the two
   steps of a string over several lines keep J, so does the loop over the lines.  J must not read the additional prefix, the line number or the line
   length, which line_step sets for every line (J_frame), nor the text and the column, of which the hypotheses say
   nothing.  The invariants of tiling and of positions are about just these (what is pending includes the additional
   prefix; offsets are counted against the line), so TokTiles and TokPos go through scan, line_core, line_step and
   lines_loop themselves, sharing TokTiles.line_start_pend for the start of a line. *)
Section Walk.
Variables (X : Type) (f : option X -> Token -> option X) (J : X -> st -> Prop).
Notation walk x l := (fold_left f l (Some x)).
Hypothesis J_frame : forall x s a ln mx, J x s ->
  J x (mkSt (paren s) (indents s) (contstr s) (contstr_start s) (endprog s) (new_line s) (prefix s) a (fstack s) ln mx).
Hypothesis J_body : forall s line pos s' toks le x,
  body C isident isspace s line pos = Ok (s', toks, le) -> contstr s = [] -> J x s -> exists x', walk x toks = Some x' /\ J x' s'.
Hypothesis J_string : forall s tk x, contstr s <> [] -> J x s ->
  exists x', walk x [mkTok STRING tk (fst (contstr_start s)) (snd (contstr_start s)) (prefix s)] = Some x' /\ J x' (with_contstr s []).
Hypothesis J_cont : forall s more x, contstr s <> [] -> J x s -> J x (with_contstr s (contstr s ++ more)).

Lemma walk_scan : forall fuel s line pos acc s' out x0 x,
  scan C isident isspace fuel s line pos acc = Ok (s', out) -> contstr s = [] -> walk x0 acc = Some x -> J x s ->
  exists x', walk x0 out = Some x' /\ J x' s'.
Proof.
  induction fuel as [|k IH]; intros s line pos acc s' out x0 x H CS R Jx; [discriminate|]. cbn [scan] in H.
  destruct (pos <? max_ s).
  - destruct (body C isident isspace s line pos) as [[[s1 toks] le]|] eqn:B; [|discriminate].
    destruct (J_body _ _ _ _ _ _ _ B CS Jx) as (x1 & R1 & J1). rewrite <- (walk_app f _ _ _ _ R) in R1.
    destruct le as [pos'|].
    + exact (IH _ _ _ _ _ _ _ _ H (body_cont _ _ _ _ _ _ B CS ltac:(discriminate)) R1 J1).
    + inversion H; subst. exists x1. split; assumption.
  - inversion H; subst. exists x. split; assumption.
Qed.

Lemma walk_line_core s line pos s' toks x :
  line_core C isident isspace s line pos = Ok (s', toks) -> J x s -> exists x', walk x toks = Some x' /\ J x' s'.
Proof.
  intros H Jx. destruct (line_core_entry _ _ _ _ _ H) as [fuel CS SC|fuel e NE _ SC|NE -> ->].
  - exact (walk_scan _ _ _ _ _ _ _ x x SC CS eq_refl Jx).
  - destruct (J_string s (contstr s ++ upto line e) x NE Jx) as (x1 & R1 & J1). exact (walk_scan _ _ _ _ _ _ _ x x1 SC eq_refl R1 J1).
  - exists x. split; [reflexivity|exact (J_cont s line x NE Jx)].
Qed.

Lemma walk_line_step s l first sc s' toks x :
  line_step C isident isspace s l first sc = Ok (s', toks) -> J x s -> exists x', walk x toks = Some x' /\ J x' s'.
Proof.
  intros H Jx. rewrite line_step_core in H. exact (walk_line_core _ _ _ _ _ _ H (J_frame _ _ _ _ _ Jx)).
Qed.

Lemma walk_lines_loop : forall lines s first sc acc s' out x0 x,
  lines_loop C isident isspace s lines first sc acc = Ok (s', out) -> walk x0 acc = Some x -> J x s ->
  exists x', walk x0 out = Some x' /\ J x' s'.
Proof.
  induction lines as [|l rest IH]; intros s first sc acc s' out x0 x H R Jx; cbn [lines_loop] in H.
  - inversion H; subst. exists x. split; assumption.
  - destruct (line_step C isident isspace s l first sc) as [[s1 toks]|] eqn:LS; [|discriminate].
    destruct (walk_line_step _ _ _ _ _ _ _ LS Jx) as (x1 & R1 & J1). rewrite <- (walk_app f _ _ _ _ R) in R1.
    exact (IH _ _ _ _ _ _ _ _ H R1 J1).
Qed.
End Walk.

End Spec.
