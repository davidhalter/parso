From Coq Require Import List NArith ZArith Bool Lia.
Import ListNotations.
Require Import Regex RegexFacts Tok.
Open Scope N_scope.

(* Facts about regex matches that the tokenizer proofs consume.  All follow from m_sound. *)

Lemma rmatch_bounds r s pos e cs : rmatch r s pos = Some (e, cs) -> pos <= e /\ e <= pos + N.of_nat (length (skipn (N.to_nat pos) s)).
Proof.
  unfold rmatch. intros H. apply m_sound in H. destruct H as (consumed & rest' & cs' & E & K & _).
  inversion K; subst. rewrite E, app_length, Nat2N.inj_add. lia.
Qed.

Lemma rmatch_le_len r s pos e cs : rmatch r s pos = Some (e, cs) -> pos <= len s -> pos <= e /\ e <= len s.
Proof.
  intros H L. destruct (rmatch_bounds _ _ _ _ _ H) as [H1 H2]. split; [exact H1|].
  unfold len in *. rewrite skipn_length in H2. lia.
Qed.

Lemma rmatch_ge_pos r s pos e cs : rmatch r s pos = Some (e, cs) -> pos <= e.
Proof. intros H. apply rmatch_bounds in H. tauto. Qed.

(* when pos is beyond the string the match (if any) is empty at pos *)
Lemma rmatch_max r s pos e cs : rmatch r s pos = Some (e, cs) -> e <= N.max pos (len s).
Proof. intros H. apply rmatch_bounds in H. unfold len. rewrite skipn_length in H. lia. Qed.

(* the shape  (group 1) (group 2)  of pseudo_token: exact spans *)
Definition shape12 (r : re) : bool :=
  match r with
  | Cat (Group 1 a) (Group 2 b) => negb (existsb (Nat.eqb 1) (groups b))
  | _ => false
  end.

Lemma grp_skip (new : caps) : forall rest g, (forall h sp, In (h, sp) new -> h <> g) -> grp g (new ++ rest) = grp g rest.
Proof.
  induction new as [|[h sp] new IH]; intros rest g H; simpl; [reflexivity|].
  destruct (Nat.eqb h g) eqn:E; [apply Nat.eqb_eq in E; exfalso; eapply H; [left; reflexivity|exact E]|].
  apply IH. intros h' sp' I. eapply H. right. exact I.
Qed.

Theorem shape12_spans r s pos e cs : shape12 r = true -> rmatch r s pos = Some (e, cs) ->
  exists j, grp 1 cs = Some (pos, j) /\ grp 2 cs = Some (j, e) /\ pos <= j /\ j <= e.
Proof.
  destruct r as [| | | | |ra rb| | | | | | | |]; try discriminate.
  destruct ra as [| | | | | | | | | |n1 a| | |]; try discriminate. destruct n1 as [|[|n1]]; try discriminate.
  destruct rb as [| | | | | | | | | |n2 b| | |]; try discriminate. destruct n2 as [|[|[|n2]]]; try discriminate.
  intros SH H. cbn [shape12] in SH. apply negb_true_iff in SH.
  unfold rmatch in H. cbn [m] in H.
  apply m_sound in H. destruct H as (c1 & rest1 & cs1 & E1 & K1 & X1).
  apply m_sound in K1. destruct K1 as (c2 & rest2 & cs2 & E2 & K2 & X2).
  inversion K2; subst e cs. clear K2.
  destruct X2 as (new2 & En2 & Hn2). subst cs2.
  set (j := pos + N.of_nat (length c1)) in *.
  exists j. split; [|split; [|split]].
  - simpl. rewrite grp_skip.
    + simpl. reflexivity.
    + intros h sp I Eh. subst h. specialize (Hn2 _ _ I).
      assert (X: existsb (Nat.eqb 1) (groups b) = true) by (apply existsb_exists; exists 1%nat; split; [exact Hn2|reflexivity]).
      rewrite X in SH. discriminate.
  - simpl. reflexivity.
  - unfold j. lia.
  - lia.
Qed.
