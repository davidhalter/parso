From Coq Require Import List NArith ZArith Bool Lia.
Import ListNotations.
Require Import Tok TokFacts.
Require Export TokSlices.
Require Import TokSpec.
Open Scope N_scope.

(* C01 / C09: the token stream tiles the input.
   emit toks = concatenation of prefix ++ string of every token.  For every list of lines tokenized from start column 0
   with a pseudo regex of the two-group shape (shape12), whenever the (guarded) tokenizer model returns tokens,
   emit toks = concat lines. *)

Lemma sub_cat s a b c : a <= b -> b <= c -> sub s a c = sub s a b ++ sub s b c.
Proof.
  intros H1 H2. unfold sub.
  replace (N.to_nat (c - a)) with (N.to_nat (b - a) + N.to_nat (c - b))%nat by lia.
  rewrite firstn_add'. f_equal. rewrite skipn_add. f_equal. f_equal. lia.
Qed.

Lemma sub_nil s a : sub s a a = [].
Proof. unfold sub. rewrite N.sub_diag. reflexivity. Qed.

Lemma upto_as_sub s b : upto s b = sub s 0 b.
Proof. unfold upto, sub. simpl. rewrite N.sub_0_r. reflexivity. Qed.

Lemma from_0 s : from s 0 = s.
Proof. reflexivity. Qed.

Lemma upto_len_app (p r : str) : upto (p ++ r) (len p) = p.
Proof. unfold upto, len. rewrite Nat2N.id. rewrite firstn_app, Nat.sub_diag, firstn_all. simpl. apply app_nil_r. Qed.

Definition emit1 (t : Token) : str := tpre t ++ ts t.
Definition emit (l : list Token) : str := concat (map emit1 l).
Lemma emit_app a b : emit (a ++ b) = emit a ++ emit b.
Proof. unfold emit. rewrite map_app, concat_app. reflexivity. Qed.
Lemma emit_one t : emit [t] = tpre t ++ ts t.
Proof. unfold emit. simpl. apply app_nil_r. Qed.
Lemma emit_nil : emit [] = [].
Proof. reflexivity. Qed.
Lemma emit_cons t r : emit (t :: r) = emit1 t ++ emit r.
Proof. reflexivity. Qed.

Lemma blks_emit p h bl h' : blks p h bl h' -> emit bl = [].
Proof. induction 1; [reflexivity|exact IHblks ..]. Qed.

Lemma place_emit sl ps : forall col pfx, ps <> [] -> emit (place sl col pfx ps) = pfx ++ concat (map snd ps).
Proof.
  induction ps as [|[t p] r IH]; intros col pfx NE; [contradiction|]. cbn [place map snd concat].
  rewrite emit_cons. unfold emit1. cbn [tpre ts].
  destruct r; [|rewrite IH by discriminate]; rewrite <- app_assoc; reflexivity.
Qed.

Ltac lists := repeat rewrite <- app_assoc; repeat rewrite app_nil_r; cbn [app]; repeat rewrite <- app_assoc; repeat rewrite app_nil_r; try reflexivity.

Section Tiles.
Variable C : coll.
Variable isident : str -> bool.
Variable isspace : N -> bool.

Notation body := (body C isident isspace).

(* text consumed but not yet emitted *)
Definition pend (s : st) : str :=
  (match contstr s with [] => addp s | _ => prefix s ++ contstr s end) ++ fpend (fstack s).

Lemma fround_tiles line s pos s1 toks oe p : fround line s pos s1 toks oe p -> contstr s = [] ->
  emit toks ++ pend s1 ++ from line p = pend s ++ from line pos.
Proof.
  intros R CS. unfold pend.
  destruct R as [|tos tos' s0 L F P _|tos tos' s0 L F _ P A G|ws q fs F F0 F1]; cbn [contstr upd_f upd_addp addp fstack]; rewrite CS.
  - reflexivity.
  - rewrite fpend_upd_top, P, (fpend_last _ tos L), F. lists.
  - rewrite emit_one, fpend_upd_top, P, (fpend_last _ tos L), G, A, F. cbn [tpre ts]. lists.
  - rewrite emit_one, F1, F0, F. cbn [tpre ts]. lists.
Qed.

Hypothesis shape : shape12 (pseudo C) = true.

(* while a string continues over lines nothing else is pending *)
Definition CInv (s : st) : Prop := contstr s <> [] -> addp s = [] /\ fpend (fstack s) = [].
Lemma CInv_nil s : contstr s = [] -> CInv s.
Proof. intros c X. rewrite c in X. contradiction. Qed.

(* nothing is pending when the first token is still to come *)
Definition at_first (first : bool) (s : st) : Prop := first = true -> contstr s = [] /\ addp s = [] /\ fpend (fstack s) = [].

(* sB is the state that line_step hands to line_core (line_step_core) *)
Lemma line_start_pend s l first ln mx : CInv s -> at_first first s ->
  let w := bom_of first l in
  let sB := mkSt (paren s) (indents s) (contstr s) (contstr_start s) (endprog s) (new_line s) (prefix s)
                 (match w with [] => addp s | _ => w end) (fstack s) ln mx in
  CInv sB /\ pend sB = pend s ++ w /\ (w = [] \/ contstr s = [] /\ fpend (fstack s) = []).
Proof.
  intros CI FI w. destruct (bom_of_split first l) as (_ & [W|(F & W)]); fold w in W; rewrite W; cbv zeta.
  - split; [exact CI|split; [symmetry; apply app_nil_r|left; reflexivity]].
  - destruct (FI F) as (F1 & F2 & F3). split; [apply CInv_nil; exact F1|]. split; [|right; split; assumption].
    unfold pend. cbn [contstr addp fstack]. rewrite F1, F2, F3. reflexivity.
Qed.

Lemma colon_head token r : starts_with [colon] token = true -> token = colon :: r -> True.
Proof. trivial. Qed.

Lemma round_tiles line ln pfx start h s' toks le :
  round line ln pfx start h s' toks le -> fpend (fstack s') = [] ->
  emit toks ++ pend s' ++ tail_of line le = pfx ++ from line start /\ CInv s'.
Proof.
  intros R F. unfold pend. rewrite F.
  destruct R as [s' bl ps q B [NE _] FR _ c a|s' le _ c T|s' bl B c N _ p a].
  - split; [|apply CInv_nil; exact c].
    rewrite c, a, emit_app, (blks_emit _ _ _ _ B), (place_emit _ _ _ _ NE), FR. cbn [tail_of]. lists.
  - split; [|apply CInv_nil; exact c]. rewrite c, <- T. lists.
  - split; [|intros _; split; assumption].
    rewrite c, p, (blks_emit _ _ _ _ B). destruct (from line start); [contradiction|]. lists.
Qed.

Lemma body_tiles : forall s line pos s' toks le,
  body s line pos = Ok (s', toks, le) -> contstr s = [] -> max_ s = len line ->
  emit toks ++ pend s' ++ tail_of line le = pend s ++ from line pos /\ max_ s' = max_ s /\ CInv s'.
Proof.
  intros s line pos s' toks le H CS MX.
  destruct (body_round _ _ _ _ _ _ _ _ _ H CS) as (s1 & toks1 & oe & p & FS & R).
  destruct (fround_frame _ _ _ _ _ _ _ FS) as (C1 & M1 & _). rewrite CS in C1.
  pose proof (fround_tiles _ _ _ _ _ _ _ FS CS) as E1. pose proof (fround_next _ _ _ _ _ _ _ FS) as NX.
  destruct oe as [e|].
  { destruct R as (-> & -> & ->). split; [|split; [exact M1|apply CInv_nil; exact C1]].
    destruct e as [q|]; cbn [tail_of]; [rewrite NX; exact E1|].
    rewrite NX, MX, from_ge in E1 by lia. exact E1. }
  destruct R as (G9 & ws & start & lim & (toksB & -> & R & M & _ & F & _) & SH). destruct (SH shape) as (F1 & _).
  destruct (round_tiles _ _ _ _ _ _ _ _ R F) as (E & CI).
  split; [|split; [rewrite M; exact M1|exact CI]].
  rewrite emit_app, <- app_assoc, E, <- E1. unfold pend at 1. rewrite C1, G9, F1. lists.
Qed.

Notation scan := (scan C isident isspace).
Notation line_step := (line_step C isident isspace).
Notation lines_loop := (lines_loop C isident isspace).

Lemma scan_tiles : forall fuel s line pos acc s' out,
  scan fuel s line pos acc = Ok (s', out) -> contstr s = [] -> max_ s = len line ->
  emit out ++ pend s' = emit acc ++ pend s ++ from line pos /\ CInv s'.
Proof.
  induction fuel as [|f IH]; intros s line pos acc s' out H CS MX; [discriminate|]. cbn [Tok.scan] in H.
  destruct (pos <? max_ s) eqn:LT.
  - destruct (body s line pos) as [[[s1 toks] le]|] eqn:B; [|discriminate].
    destruct (body_tiles _ _ _ _ _ _ B CS MX) as (E & M & CI).
    destruct le as [pos'|].
    + destruct (IH _ _ _ _ _ _ H (body_cont _ _ _ _ _ _ _ _ _ B CS ltac:(discriminate)) ltac:(rewrite M; exact MX)) as (E2 & CI2).
      split; [|exact CI2].
      rewrite E2, emit_app. cbn [tail_of] in E. rewrite <- E. lists.
    + inversion H; subst. split; [|exact CI].
      rewrite emit_app. cbn [tail_of] in E. rewrite app_nil_r in E. rewrite <- E. lists.
  - inversion H; subst. apply N.ltb_ge in LT. rewrite from_ge by lia. rewrite app_nil_r.
    split; [reflexivity|apply CInv_nil; exact CS].
Qed.

Lemma line_core_tiles : forall sB line s' toks,
  line_core C isident isspace sB line 0 = Ok (s', toks) -> CInv sB -> max_ sB = len line ->
  emit toks ++ pend s' = pend sB ++ line /\ CInv s'.
Proof.
  intros sB line s' toks H CI MX.
  destruct (line_core_entry _ _ _ _ _ _ _ _ H) as [fuel CS SC|fuel e NE _ SC|NE -> ->]; [|destruct (CI NE) as [A0 F0] ..].
  - exact (scan_tiles _ _ _ _ _ _ _ SC CS MX).
  - destruct (scan_tiles _ _ _ _ _ _ _ SC eq_refl MX) as (E & CI2). split; [|exact CI2].
    rewrite E, emit_one. unfold pend. cbn [tpre ts contstr with_contstr addp fstack]. rewrite A0, F0.
    pose proof (from_upto line e) as FU. set (u := upto line e) in *. set (v := from line e) in *. rewrite <- FU.
    destruct (contstr sB); [contradiction|]. lists.
  - split; [|intros _; split; assumption].
    unfold pend. cbn [contstr with_contstr prefix fstack]. rewrite F0. destruct (contstr sB); [contradiction|]. lists.
Qed.

Lemma line_step_tiles : forall s line0 first s' toks,
  line_step s line0 first 0 = Ok (s', toks) -> CInv s ->
  at_first first s ->
  emit toks ++ pend s' = pend s ++ line0 /\ CInv s'.
Proof.
  intros s line0 first s' toks H CI FI. rewrite line_step_core0 in H. cbv zeta in H.
  edestruct (line_start_pend s line0 first) as (CB & PB & _); [exact CI|exact FI|].
  apply line_core_tiles in H; [|exact CB|reflexivity]. destruct H as [E X]. split; [|exact X].
  rewrite E, PB, <- app_assoc, <- (proj1 (bom_of_split first line0)). reflexivity.
Qed.

Lemma lines_loop_tiles : forall lines s first acc s' out,
  lines_loop s lines first 0 acc = Ok (s', out) -> CInv s ->
  at_first first s ->
  emit out ++ pend s' = emit acc ++ pend s ++ concat lines /\ CInv s'.
Proof.
  induction lines as [|l rest IH]; intros s first acc s' out H CI FI; cbn [Tok.lines_loop] in H.
  - inversion H; subst. simpl. rewrite app_nil_r. split; [reflexivity|exact CI].
  - destruct (line_step s l first 0) as [[s1 toks]|] eqn:LS; [|discriminate].
    destruct (line_step_tiles _ _ _ _ _ LS CI FI) as (E1 & CI1).
    destruct (IH _ _ _ _ _ H CI1 ltac:(discriminate)) as (E2 & CI2).
    split; [|exact CI2]. rewrite E2, emit_app. cbn [concat]. rewrite (app_assoc (pend s) l), <- E1. lists.
Qed.

Lemma flush_tiles s : CInv s -> fpend (removelast (fstack s)) = [] ->
  (forall f, last_opt (fstack s) = Some f -> prev_lines f <> [] -> addp s = []) -> emit (flush s) ++ addp s = pend s.
Proof.
  intros CI G GA. unfold flush, pend. rewrite emit_app.
  destruct (contstr s) as [|cc ct] eqn:CS.
  - rewrite emit_nil. destruct (last_opt (fstack s)) as [f|] eqn:LO.
    + rewrite (fpend_last _ f LO), G. destruct (prev_lines f) as [|y pl] eqn:PL.
      * rewrite emit_nil. lists.
      * rewrite (GA f eq_refl ltac:(rewrite PL; discriminate)), emit_one. cbn [tpre ts]. lists.
    + rewrite (last_opt_none _ LO), emit_nil. lists.
  - destruct (CI ltac:(rewrite CS; discriminate)) as [A0 F0]. rewrite emit_one. cbn [tpre ts]. rewrite A0, F0.
    destruct (last_opt (fstack s)) as [f|] eqn:LO; [rewrite (fpend_nil_last _ _ F0 LO)|]; rewrite emit_nil; lists.
Qed.

Theorem tok_tiles : forall lines inds sl first toks,
  tokenize_lines C isident isspace lines inds sl 0 first = Ok toks -> emit toks = concat lines.
Proof.
  intros lines inds sl first toks H. destruct (tokenize_lines_tail _ _ _ _ _ _ _ _ _ H) as (s & out & bl & LL & -> & B3 & G & GA).
  destruct (lines_loop_tiles _ _ _ _ _ _ LL (fun X => False_ind _ (X eq_refl)) (fun _ => conj eq_refl (conj eq_refl eq_refl))) as (E & CI).
  simpl in E. rewrite <- E, !emit_app, (blks_emit _ _ _ _ B3), emit_one, <- (flush_tiles s CI G GA). cbn [tpre ts]. lists.
Qed.
End Tiles.
Print Assumptions tok_tiles.
