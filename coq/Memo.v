From Coq Require Import List Arith.
Import ListNotations.

(* Write-once memo tables under arbitrary interleavings (parso.grammar._loaded_grammars via
   dict.setdefault, parso.python.tokenize._token_collection_cache via plain assignment).
   A call is  lookup ; (on a miss) compute ; store ; return.  Threads are interleaved at the
   granularity of these steps by an arbitrary schedule. *)

Section Memo.
Variable f : nat -> nat.
Variable use_setdefault : bool.          (* true: table.setdefault(k, v) ; false: table[k] = v *)

Definition table := list (nat * nat).
Fixpoint get (t : table) (k : nat) : option nat :=
  match t with [] => None | (a, v) :: r => if a =? k then Some v else get r k end.
Definition set (t : table) (k v : nat) : table := (k, v) :: t.

Inductive pc := Idle | Looked (k : nat) | Computed (k v : nat).
Record thread := mkT { todo : list nat; at_ : pc; results : list (nat * nat) }.   (* results: (key, returned value) *)
Record world := mkW { tab : table; threads : list thread }.

Definition step_thread (t : table) (th : thread) : table * thread :=
  match at_ th with
  | Idle =>
    match todo th with
    | [] => (t, th)
    | k :: rest =>
      match get t k with
      | Some v => (t, mkT rest Idle (results th ++ [(k, v)]))
      | None => (t, mkT rest (Looked k) (results th))
      end
    end
  | Looked k => (t, mkT (todo th) (Computed k (f k)) (results th))
  | Computed k v =>
    if use_setdefault then
      match get t k with
      | Some v' => (t, mkT (todo th) Idle (results th ++ [(k, v')]))
      | None => (set t k v, mkT (todo th) Idle (results th ++ [(k, v)]))
      end
    else (set t k v, mkT (todo th) Idle (results th ++ [(k, v)]))
  end.

Fixpoint upd {A} (l : list A) (i : nat) (x : A) : list A :=
  match l, i with
  | [], _ => []
  | _ :: r, O => x :: r
  | a :: r, S j => a :: upd r j x
  end.

Definition step (w : world) (i : nat) : world :=
  match nth_error (threads w) i with
  | None => w
  | Some th => let '(t', th') := step_thread (tab w) th in mkW t' (upd (threads w) i th')
  end.

Definition run (w : world) (schedule : list nat) : world := fold_left step schedule w.

Definition tab_ok (t : table) : Prop := forall k v, get t k = Some v -> v = f k.
Definition pc_ok (p : pc) : Prop := match p with Computed k v => v = f k | _ => True end.
Definition thread_ok (th : thread) : Prop :=
  pc_ok (at_ th) /\ forall k v, In (k, v) (results th) -> v = f k.
Definition Inv (w : world) : Prop := tab_ok (tab w) /\ Forall thread_ok (threads w).

Lemma get_set t k v k' : get (set t k v) k' = if k =? k' then Some v else get t k'.
Proof. reflexivity. Qed.

Lemma tab_ok_set t k : tab_ok t -> tab_ok (set t k (f k)).
Proof.
  intros H k' v'. rewrite get_set. destruct (k =? k') eqn:E; [|apply H].
  apply Nat.eqb_eq in E. subst. intros X. inversion X. reflexivity.
Qed.

Lemma returns_ok th rest k v : thread_ok th -> v = f k -> thread_ok (mkT rest Idle (results th ++ [(k, v)])).
Proof.
  intros [_ Hr] E. split; [exact I|]. simpl. intros a b Hin.
  apply in_app_or in Hin as [Hin|[Hin|[]]]; [eauto|]. inversion Hin; subst. reflexivity.
Qed.

Lemma step_thread_ok t th t' th' :
  tab_ok t -> thread_ok th -> step_thread t th = (t', th') -> tab_ok t' /\ thread_ok th'.
Proof.
  intros Ht Hth H. pose proof Hth as [Hp Hr]. unfold step_thread in H. destruct (at_ th) as [|k|k v] eqn:P.
  - destruct (todo th) as [|k rest]; [inversion H; subst; split; assumption|].
    destruct (get t k) as [v|] eqn:G; inversion H; subst; (split; [exact Ht|]).
    + apply returns_ok; [exact Hth|apply Ht; exact G].
    + split; [exact I|exact Hr].
  - inversion H; subst. split; [exact Ht|]. split; [reflexivity|exact Hr].
  - simpl in Hp. subst v.
    destruct use_setdefault; [destruct (get t k) as [v'|] eqn:G|]; inversion H; subst.
    + split; [exact Ht|apply returns_ok; [exact Hth|apply Ht; exact G]].
    + split; [apply tab_ok_set; exact Ht|apply returns_ok; [exact Hth|reflexivity]].
    + split; [apply tab_ok_set; exact Ht|apply returns_ok; [exact Hth|reflexivity]].
Qed.

Lemma Forall_upd {A} (P : A -> Prop) l i x : Forall P l -> P x -> Forall P (upd l i x).
Proof.
  revert i; induction l as [|a r IH]; intros i Hl Hx; simpl; [constructor|].
  inversion Hl; subst. destruct i; constructor; auto.
Qed.

Lemma step_inv w i : Inv w -> Inv (step w i).
Proof.
  intros [Ht Hth]. unfold step. destruct (nth_error (threads w) i) as [th|] eqn:E; [|split; assumption].
  destruct (step_thread (tab w) th) as [t' th'] eqn:S.
  assert (Hok: thread_ok th). { rewrite Forall_forall in Hth. apply Hth. eapply nth_error_In; exact E. }
  destruct (step_thread_ok _ _ _ _ Ht Hok S) as [Ht' Hth'].
  split; simpl; [exact Ht'|apply Forall_upd; assumption].
Qed.

Theorem memo_linearizable : forall schedule w, Inv w ->
  let w' := run w schedule in
  (forall k v, get (tab w') k = Some v -> v = f k) /\
  (forall th k v, In th (threads w') -> In (k, v) (results th) -> v = f k).
Proof.
  induction schedule as [|i s IH]; intros w HI; simpl.
  - destruct HI as [Ht Hth]. split; [exact Ht|]. intros th k v Hin Hr. rewrite Forall_forall in Hth.
    destruct (Hth th Hin) as [_ H]. eapply H; exact Hr.
  - apply IH. apply step_inv. exact HI.
Qed.

Definition init (progs : list (list nat)) : world := mkW [] (map (fun p => mkT p Idle []) progs).
Lemma init_inv progs : Inv (init progs).
Proof.
  split; [intros k v H; discriminate|]. unfold init; simpl. apply Forall_forall. intros th Hin.
  apply in_map_iff in Hin as (p & <- & _). split; [exact I|intros k v []].
Qed.
End Memo.

(* non-vacuity: two threads racing on the same key, both variants; every call returns f k *)
Example race_setdefault :
  map (@results) (threads (run (fun k => k * 7) true (init [[3; 3]; [3]]) [0; 1; 0; 1; 0; 1; 0; 0]))
  = [[(3, 21); (3, 21)]; [(3, 21)]].
Proof. reflexivity. Qed.
Example race_assignment :
  map (@results) (threads (run (fun k => k * 7) false (init [[3; 3]; [3]]) [0; 1; 0; 1; 0; 1; 0; 0]))
  = [[(3, 21); (3, 21)]; [(3, 21)]].
Proof. reflexivity. Qed.
Print Assumptions memo_linearizable.
