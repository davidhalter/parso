From Coq Require Import List Arith Lia.
Import ListNotations.
Require Import Regex Tok Engine Tree.
Local Open Scope nat_scope.

(* Model of Grammar.refactor = RefactoringNormalizer(node_to_str_map).walk(node) (parso/normalizer.py).
   The dict is keyed by node identity; in the model a node is identified by its path from the
   base node, so the map is a function on paths (relative to the current node). *)

Definition rmap := list nat -> option str.
Definition shift (m : rmap) (i : nat) : rmap := fun q => m (i :: q).

Fixpoint refactor (m : rmap) (t : tree) : str :=
  match m [] with
  | Some s => s
  | None =>
    match t with
    | Leaf _ v p _ _ => p ++ v
    | Node _ cs =>
      (fix go (i : nat) (l : list tree) : str :=
         match l with [] => [] | c :: r => refactor (shift m i) c ++ go (S i) r end) 0 cs
    end
  end.

Fixpoint refactor_children (m : rmap) (i : nat) (l : list tree) : str :=
  match l with [] => [] | c :: r => refactor (shift m i) c ++ refactor_children m (S i) r end.

Lemma refactor_node m k cs : m [] = None -> refactor m (Node k cs) = refactor_children m 0 cs.
Proof.
  intros H. simpl. rewrite H. generalize 0. induction cs as [|c r IH]; intros i; simpl; [reflexivity|].
  rewrite IH. reflexivity.
Qed.

Theorem refactor_mapped : forall m t s, m [] = Some s -> refactor m t = s.
Proof. intros m t s H. destruct t; simpl; rewrite H; reflexivity. Qed.

Theorem refactor_hides_descendants : forall m m' t, m [] = m' [] -> m [] <> None -> refactor m t = refactor m' t.
Proof.
  intros m m' t E N. destruct (m []) as [s|] eqn:M; [|contradiction].
  rewrite (refactor_mapped m t s M). symmetry. apply refactor_mapped. rewrite <- E. reflexivity.
Qed.

(* frontier m t lists, in text order, the pieces the walk of RefactoringNormalizer stops at: a mapped subtree (its path,
   its own code, the replacement) or an unmapped leaf (its text twice).  A mapped subtree is replaced as a whole, prefix
   included, and mapped nodes below a mapped node are ignored. *)
Record piece := mkPiece { pc_path : list nat; pc_mapped : bool; pc_old : str; pc_new : str }.

Fixpoint frontier (m : rmap) (here : list nat) (t : tree) : list piece :=
  match m [] with
  | Some s => [mkPiece here true (get_code t) s]
  | None =>
    match t with
    | Leaf _ v p _ _ => [mkPiece here false (p ++ v) (p ++ v)]
    | Node _ cs =>
      (fix go (i : nat) (l : list tree) : list piece :=
         match l with [] => [] | c :: r => frontier (shift m i) (here ++ [i]) c ++ go (S i) r end) 0 cs
    end
  end.
Fixpoint frontier_children (m : rmap) (here : list nat) (i : nat) (l : list tree) : list piece :=
  match l with [] => [] | c :: r => frontier (shift m i) (here ++ [i]) c ++ frontier_children m here (S i) r end.
Lemma frontier_node m here k cs : m [] = None -> frontier m here (Node k cs) = frontier_children m here 0 cs.
Proof.
  intros H. simpl. rewrite H. generalize 0. induction cs as [|c r IH]; intros i; simpl; [reflexivity|]. rewrite IH. reflexivity.
Qed.
Lemma frontier_mapped m here t s : m [] = Some s -> frontier m here t = [mkPiece here true (get_code t) s].
Proof. intros H. destruct t; simpl; rewrite H; reflexivity. Qed.

Definition olds (l : list piece) : str := concat (map pc_old l).
Definition news (l : list piece) : str := concat (map pc_new l).
Lemma olds_app a b : olds (a ++ b) = olds a ++ olds b.
Proof. unfold olds. rewrite map_app, concat_app. reflexivity. Qed.
Lemma news_app a b : news (a ++ b) = news a ++ news b.
Proof. unfold news. rewrite map_app, concat_app. reflexivity. Qed.

Theorem refactor_is_splice : forall t m here,
  get_code t = olds (frontier m here t) /\ refactor m t = news (frontier m here t).
Proof.
  induction t as [k v p l c|k cs IH] using tree_ind'; intros m here; destruct (m []) as [s|] eqn:M.
  1,3: rewrite (refactor_mapped m _ s M), (frontier_mapped m here _ s M); unfold olds, news; simpl;
    rewrite !app_nil_r; split; reflexivity.
  - simpl. rewrite M. unfold olds, news. simpl. rewrite app_nil_r. split; reflexivity.
  - rewrite refactor_node, frontier_node, get_code_node by exact M. unfold codes.
    generalize 0. induction IH as [|c r Hc _ IHr]; intros i; simpl; [split; reflexivity|].
    destruct (Hc (shift m i) (here ++ [i])) as [H1 H2]. destruct (IHr (S i)) as [H3 H4].
    rewrite olds_app, news_app, <- H1, <- H2, <- H3, <- H4. split; reflexivity.
Qed.

Definition piece_ok (m : rmap) (t : tree) (here : list nat) (pc : piece) : Prop :=
  exists q n, pc_path pc = here ++ q /\ subtree t q = Some n /\ pc_old pc = get_code n /\
    (forall q1 q2, q = q1 ++ q2 -> q2 <> [] -> m q1 = None) /\
    ((pc_mapped pc = true /\ m q = Some (pc_new pc)) \/
     (pc_mapped pc = false /\ m q = None /\ pc_new pc = pc_old pc /\ match n with Leaf _ _ _ _ _ => True | Node _ _ => False end)).

Lemma piece_here m t here b s :
  (b = true /\ m [] = Some s) \/ (b = false /\ m [] = None /\ s = get_code t /\ match t with Leaf _ _ _ _ _ => True | Node _ _ => False end) ->
  piece_ok m t here (mkPiece here b (get_code t) s).
Proof.
  intros H. exists [], t. rewrite app_nil_r. repeat split; [|exact H].
  intros q1 q2 E NE. symmetry in E. apply app_eq_nil in E as [_ E]. contradiction.
Qed.

Lemma piece_child m k cs here j c pc : m [] = None -> nth_error cs j = Some c ->
  piece_ok (shift m j) c (here ++ [j]) pc -> piece_ok m (Node k cs) here pc.
Proof.
  intros M N (q & n & P1 & P2 & P3 & P4 & P5). exists (j :: q), n.
  split; [rewrite P1, <- app_assoc; reflexivity|]. split; [simpl; rewrite N; exact P2|]. split; [exact P3|]. split; [|exact P5].
  intros q1 q2 E NE. destruct q1 as [|j1 q1]; [exact M|]. inversion E; subst j1. apply (P4 q1 q2 H1 NE).
Qed.

Lemma in_frontier_children m here pc : forall l i0, In pc (frontier_children m here i0 l) ->
  exists j c, nth_error l j = Some c /\ In pc (frontier (shift m (i0 + j)) (here ++ [i0 + j]) c).
Proof.
  induction l as [|c r IHr]; intros i0 I; [destruct I|]. simpl in I. apply in_app_or in I as [I|I].
  - exists 0, c. rewrite Nat.add_0_r. split; [reflexivity|exact I].
  - destruct (IHr (S i0) I) as (j & c' & N & I1). exists (S j), c'. rewrite Nat.add_succ_r. split; [exact N|exact I1].
Qed.

Theorem frontier_pieces : forall t m here pc, In pc (frontier m here t) -> piece_ok m t here pc.
Proof.
  induction t as [k v p l c|k cs IH] using tree_ind'; intros m here pc I; destruct (m []) as [s|] eqn:M.
  1,3: rewrite (frontier_mapped m here _ s M) in I; destruct I as [<-|[]]; apply piece_here; left;
    split; [reflexivity|exact M].
  - simpl in I. rewrite M in I. destruct I as [<-|[]]. apply (piece_here m (Leaf k v p l c)). right. repeat split. exact M.
  - rewrite frontier_node in I by exact M. destruct (in_frontier_children _ _ _ _ _ I) as (j & c & N & I1).
    rewrite Forall_forall in IH. exact (piece_child _ _ _ _ _ _ _ M N (IH c (nth_error_In _ _ N) _ _ _ I1)).
Qed.

Theorem refactor_empty : forall t m, (forall q, m q = None) -> refactor m t = get_code t.
Proof.
  intros t m H. destruct (refactor_is_splice t m []) as [-> ->]. unfold olds, news. f_equal. apply map_ext_in.
  intros pc I. destruct (frontier_pieces _ _ _ _ I) as (q & n & _ & _ & _ & _ & [[_ E]|(_ & _ & E & _)]); [|exact E].
  rewrite H in E. discriminate.
Qed.

Lemma refactor_children_code m k l : (forall j q, k <= j -> m (j :: q) = None) -> refactor_children m k l = codes l.
Proof.
  revert k. induction l as [|c r IH]; intros k H; simpl; [reflexivity|].
  rewrite refactor_empty, IH; [reflexivity| |]; intros; apply H; lia.
Qed.

Lemma refactor_children_none m i l : (forall j q, m (j :: q) = None) -> refactor_children m i l = codes l.
Proof. intros H. apply refactor_children_code. intros j q _. apply H. Qed.

Lemma refactor_children_at m cs : forall i0 i c, nth_error cs i = Some c ->
  (forall j q, j <> i0 + i -> m (j :: q) = None) ->
  refactor_children m i0 cs = codes (firstn i cs) ++ refactor (shift m (i0 + i)) c ++ codes (skipn (S i) cs).
Proof.
  induction cs as [|x r IH]; intros i0 i c E Hm; [destruct i; discriminate|].
  destruct i as [|i]; simpl in E |- *.
  - inversion E; subst x. rewrite Nat.add_0_r in *. rewrite refactor_children_code; [reflexivity|]. intros j q Hj. apply Hm. lia.
  - rewrite (IH (S i0) i c E), refactor_empty, Nat.add_succ_r; [unfold codes; simpl; rewrite <- app_assoc; reflexivity| |];
      intros; apply Hm; lia.
Qed.

Theorem refactor_single : forall p t n s m,
  subtree t p = Some n -> m p = Some s -> (forall q, q <> p -> m q = None) ->
  refactor m t = before t p ++ s ++ after t p.
Proof.
  induction p as [|i p IH]; intros t n s m Hs Hm Ho.
  - rewrite (refactor_mapped m t s Hm). destruct t; simpl; rewrite app_nil_r; reflexivity.
  - simpl in Hs. destruct t as [|k cs]; [discriminate|].
    destruct (nth_error cs i) as [c|] eqn:E; [|discriminate].
    rewrite refactor_node by (apply Ho; discriminate).
    rewrite (refactor_children_at m cs 0 i c E) by (intros j q Hj; apply Ho; intros [= X _]; exact (Hj X)).
    cbn [Nat.add]. rewrite (IH c n s (shift m i) Hs Hm) by (intros q Hq; apply Ho; congruence).
    simpl. rewrite E, <- !app_assoc. reflexivity.
Qed.
Print Assumptions refactor_single.
