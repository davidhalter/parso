From Coq Require Import List NArith Bool.
Import ListNotations.
Require Import Regex Tok Engine LL1 LL1Inst EngineConfine.
Open Scope N_scope.

(* The test the per-grammar files evaluate: one executable test of a grammar, its plan table, a candidate FOLLOW table
   and a candidate holder set that establishes the three sets of facts the engine theorems ask of the tables -
   sound_tables and complete_tables (LL1Inst.v) and confining (EngineConfine.v).  It establishes what the boolean
   checkers of LL1Inst.v and EngineConfine.v establish, arranged so that every table is searched once per state or
   rule: the first chains of each rule are computed once (all_chains) and kept in a table, the plans of a state are
   compared with the arcs of that state, and the condition on pushed chains that confinement needs is reduced to a
   condition on arcs. *)

Section PlanCheck.
Variable G : gram.
Variable TR : list (N * list (label * plan)).
Variable FWT : list (N * list label).
Variable H : list N.
Variable fuel : nat.

Local Notation arcT := (arcT G).
Local Notation arcN := (arcN G).
Local Notation startR := (startR G).
Local Notation validR := (validR G).
Local Notation plansI := (plansI TR).
Local Notation first_chain := (first_chain N label N arcT arcN startR).
Local Notation inH := (inH H).

(* first_T, first_N: the inner loops of LL1Inst.arcT and Engine.arc_nt over the arcs of a state that is already at hand;
   through arcT / arcN the state would be looked up again for every arc and every plan. *)
Definition first_T (arcs : list (sym * N)) (a : label) : option N :=
  (fix go (l : list (sym * N)) : option N :=
     match l with
     | [] => None
     | (T a', nx) :: t => if label_eqb a' a then Some nx else go t
     | _ :: t => go t end) arcs.
Definition first_N (arcs : list (sym * N)) (B : N) : option N :=
  (fix go (l : list (sym * N)) := match l with
     | [] => None | (NT r', nx) :: t => if r' =? B then Some nx else go t
     | _ :: t => go t end) arcs.
Lemma arcT_first q d a : st_of G q = Some d -> arcT q a = first_T (d_arcs d) a.
Proof. intros S. unfold LL1Inst.arcT. rewrite S. reflexivity. Qed.
Lemma arcN_first q d B : st_of G q = Some d -> arcN q B = first_N (d_arcs d) B.
Proof. intros S. unfold LL1Inst.arcN, arc_nt. rewrite S. reflexivity. Qed.

Definition arc_selected (arcs : list (sym * N)) (a : sym * N) : bool :=
  match fst a with T l => opt_is (first_T arcs l) (snd a) | NT B => opt_is (first_N arcs B) (snd a) end.
(* the automata are deterministic: every arc of a state is the first with its symbol (all_chains_sound rests on it) *)
Definition arcs_selected_ok : bool := forallb (fun d => forallb (arc_selected (d_arcs d)) (d_arcs d)) (g_states G).

Lemma selected_T q a nx : arcs_selected_ok = true -> In (T a, nx) (arcs_of G q) -> arcT q a = Some nx.
Proof. intros K I. destruct (arcs_forall G _ K q _ I) as (d & S & X). rewrite (arcT_first q d a S). exact (opt_is_ok _ _ X). Qed.
Lemma selected_N q B nx : arcs_selected_ok = true -> In (NT B, nx) (arcs_of G q) -> arcN q B = Some nx.
Proof. intros K I. destruct (arcs_forall G _ K q _ I) as (d & S & X). rewrite (arcN_first q d B S). exact (opt_is_ok _ _ X). Qed.

Lemma all_chains_sound : arcs_selected_ok = true -> forall f B l, all_chains G f B = Some l ->
  forall a ch, In (a, ch) l -> first_chain B a ch.
Proof.
  intros K. induction f as [|f IH]; intros B l E a ch I; [discriminate|]. rewrite all_chains_S in E.
  apply chains_from_spec in E as [-> _]. apply in_flat_map in I as ([[a'|C] nx] & J & I); cbn [arc_chains] in I.
  - destruct I as [[= <- <-]|[]]. apply fc_t. exact (selected_T _ _ _ K J).
  - destruct (all_chains G f C) as [lc|] eqn:AC; [|destruct I]. apply in_map_iff in I as ([a0 ch0] & [= <- <-] & I).
    exact (fc_n _ _ _ _ _ _ _ C _ _ _ (selected_N _ _ _ K J) (IH C lc AC _ _ I)).
Qed.

Definition chain_table : list (N * list (label * list N)) :=
  flat_map (fun '(B, _) => match all_chains G fuel B with Some l => [(B, l)] | None => [] end) (g_start G).
Definition chains_known_ok (tab : list (N * list (label * list N))) : bool :=
  forallb (fun '(B, _) => match assocN B tab with Some _ => true | None => false end) (g_start G).
Definition chains_of (tab : list (N * list (label * list N))) (B : N) : list (label * list N) :=
  match assocN B tab with Some l => l | None => [] end.

Lemma chain_table_chains B l : assocN B chain_table = Some l -> all_chains G fuel B = Some l.
Proof.
  intros A. apply assocN_in, in_flat_map in A as ([B' q] & _ & I).
  destruct (all_chains G fuel B') as [l'|] eqn:E; [|destruct I]. destruct I as [[= <- <-]|[]]. exact E.
Qed.
Lemma chains_of_sound : arcs_selected_ok = true -> forall B a ch, In (a, ch) (chains_of chain_table B) -> first_chain B a ch.
Proof.
  intros K B a ch I. unfold chains_of in I. destruct (assocN B chain_table) as [l|] eqn:E; [|destruct I].
  exact (all_chains_sound K fuel B l (chain_table_chains B l E) a ch I).
Qed.
Lemma chains_of_complete : chains_known_ok chain_table = true -> forall B a ch, validR B -> first_chain B a ch -> In (a, ch) (chains_of chain_table B).
Proof.
  intros K B a ch V FC. destruct (validR_in G B V) as (q & I). unfold chains_known_ok in K. rewrite forallb_forall in K.
  specialize (K _ I). cbv beta iota in K. unfold chains_of. destruct (assocN B chain_table) as [l|] eqn:A; [|discriminate].
  exact (all_chains_complete G fuel B l (chain_table_chains B l A) a ch FC).
Qed.

Definition label_chain_eqb (x y : label * list N) : bool := label_eqb (fst x) (fst y) && list_N_eqb (snd x) (snd y).
Lemma label_chain_eqb_eq x y : label_chain_eqb x y = true -> x = y.
Proof.
  destruct x as [a c], y as [b d]. unfold label_chain_eqb. cbn [fst snd]. intros X. apply andb_true_iff in X as [X1 X2].
  apply label_eqb_eq in X1. apply list_N_eqb_eq in X2. subst. reflexivity.
Qed.

Definition plan_sound_at (tab : list (N * list (label * list N))) (arcs : list (sym * N)) (a : label) (pl : plan) : bool :=
  (match p_pushes pl with [] => true | _ => false end && opt_is (first_T arcs a) (p_next pl)) ||
  existsb (fun '(sy, nx) => match sy with
                            | NT B => (nx =? p_next pl) && existsb (label_chain_eqb (a, p_pushes pl)) (chains_of tab B)
                            | T _ => false end) arcs.
Definition plan_at (tr : list (label * plan)) (a : label) (q' : N) (ch : list N) : bool :=
  match assocL a tr with Some pl => (p_next pl =? q') && list_N_eqb (p_pushes pl) ch | None => false end.
Definition plans_complete_at (tab : list (N * list (label * list N))) (arcs : list (sym * N)) (tr : list (label * plan)) : bool :=
  forallb (fun '(sy, nx) => match sy with
                            | T a => plan_at tr a nx []
                            | NT B => forallb (fun '(a, ch) => plan_at tr a nx ch) (chains_of tab B) end) arcs.
Definition plans_ok (tab : list (N * list (label * list N))) : bool :=
  forallb (fun '(q, tr) => match st_of G q with
                           | Some d => forallb (fun '(a, pl) => plan_sound_at tab (d_arcs d) a pl) tr
                           | None => match tr with [] => true | _ => false end end) TR &&
  forallb (fun d => plans_complete_at tab (d_arcs d) (match assocN (d_id d) TR with Some tr => tr | None => [] end)) (g_states G).

Lemma plans_ok_sound : arcs_selected_ok = true -> plans_ok chain_table = true -> forall q a q' ch, plansI q a = Some (q', ch) ->
  (ch = [] /\ arcT q a = Some q') \/ (exists B, arcN q B = Some q' /\ first_chain B a ch).
Proof.
  intros K P q a q' ch X. apply andb_true_iff in P as [P _]. destruct (plansI_in TR _ _ _ _ X) as (tr & pl & A & I2 & <- & <-).
  rewrite forallb_forall in P. specialize (P _ (assocN_in _ _ _ A)). cbv beta iota in P.
  destruct (st_of G q) as [d|] eqn:S; [|destruct tr; [destruct I2|discriminate P]].
  rewrite forallb_forall in P. specialize (P _ I2). apply orb_true_iff in P as [P|P].
  - apply andb_true_iff in P as [P1 P2]. left.
    split; [destruct (p_pushes pl); [reflexivity|discriminate]|rewrite (arcT_first q d a S); apply opt_is_ok; exact P2].
  - apply existsb_exists in P as ([[l|B] nx] & I & P); [discriminate|]. rewrite <- (arcs_of_st G q d S) in I.
    apply andb_true_iff in P as [P1 P2]. apply N.eqb_eq in P1. subst nx.
    apply existsb_exists in P2 as (x & I2' & E). apply label_chain_eqb_eq in E. subst x.
    right. exists B. split; [exact (selected_N _ _ _ K I)|exact (chains_of_sound K _ _ _ I2')].
Qed.

Lemma plan_at_ok q d a q' ch : st_of G q = Some d ->
  plan_at (match assocN (d_id d) TR with Some tr => tr | None => [] end) a q' ch = true -> plansI q a = Some (q', ch).
Proof.
  intros S X. apply plan_is_ok. rewrite <- X, (st_of_id G q d S). unfold plan_is, plan_at, LL1Inst.plansI, trans.
  destruct (assocN q TR) as [tr|]; [destruct (assocL a tr)|]; reflexivity.
Qed.
Lemma plans_ok_complete : (forall q B q', arcN q B = Some q' -> validR B) -> chains_known_ok chain_table = true -> plans_ok chain_table = true ->
  forall q a q' ch,
    (ch = [] /\ arcT q a = Some q') \/ (exists B, arcN q B = Some q' /\ first_chain B a ch) -> plansI q a = Some (q', ch).
Proof.
  intros V K P q a q' ch D. apply andb_true_iff in P as [_ P]. destruct D as [[-> A]|(B & A & FC)].
  - destruct (arcs_forall G _ P q _ (arcT_in G _ _ _ A)) as (d & S & X). exact (plan_at_ok q d a q' [] S X).
  - destruct (arcs_forall G _ P q _ (arcN_in G _ _ _ A)) as (d & S & X). cbv beta iota in X. rewrite forallb_forall in X.
    exact (plan_at_ok q d a q' ch S (X _ (chains_of_complete K B a ch (V _ _ _ A) FC))).
Qed.

(* the three FOLLOW checkers of LL1Inst.v with the list that each inner loop searches bound outside the loop, so that
   it is found once; the same terms up to that naming, hence the proof by reflexivity *)
Definition follow_ok : bool :=
  forallb (fun d => forallb (fun '(s, nx) => match s with
                                            | NT B => let fwB := fw_list FWT B in
                                                      forallb (fun t => existsb (fun x => label_eqb x t) fwB) (plan_labels TR nx)
                                            | T _ => true end) (d_arcs d)) (g_states G) &&
  forallb (fun d => forallb (fun '(s, nx) => match s with
                                            | NT B => if final G nx
                                                      then let fwB := fw_list FWT B in
                                                           forallb (fun t => existsb (fun x => label_eqb x t) fwB) (fw_list FWT (d_rule d))
                                                      else true
                                            | T _ => true end) (d_arcs d)) (g_states G) &&
  forallb (fun d => if d_final d
                    then let tro := assocN (d_id d) TR in
                         forallb (fun t => match match match tro with Some tr => assocL t tr | None => None end with
                                                 | Some pl => Some (p_next pl, p_pushes pl)
                                                 | None => None end with
                                           | None => true
                                           | Some _ => false end) (fw_list FWT (d_rule d))
                    else true) (g_states G).
Lemma follow_ok_split : follow_ok = fw1_ok G TR FWT && fw2_ok G FWT && noconf_ok G TR FWT.
Proof. reflexivity. Qed.

Definition arcs_closed_ok : bool :=
  forallb (fun d => forallb (fun '(sy, _) => match sy with NT C => implb (inH C) (inH (d_rule d)) | T _ => true end) (d_arcs d)) (g_states G).
Definition holders_ok : bool :=
  arcs_closed_ok && inH (r_file_input G) && inH (r_suite G) &&
  negb (inH (r_parameters G)) && negb (inH (r_lambdef G)) && negb (inH (r_lambdef_nocond G)).

Lemma arcs_closed q C q' : arcs_closed_ok = true -> arcN q C = Some q' -> implb (inH C) (inH (rule_of G q)) = true.
Proof. intros K A. destruct (arcs_forall G _ K q _ (arcN_in G _ _ _ A)) as (d & S & X). rewrite (rule_of_st G q d S). exact X. Qed.

Lemma chain_confined : sound_tables G TR -> arcs_closed_ok = true -> forall B a ch, first_chain B a ch -> validR B ->
  forall X, implb (inH B) (inH X) = true -> chainR H (map (rule_of G) (rev ch) ++ [X]) = true.
Proof.
  intros ST K B a ch FC. induction FC as [B a s AT|B C a s ch' AN FC IH]; intros V X IM.
  - cbn. rewrite (st_arcT _ _ ST _ _ _ AT), (st_start _ _ ST B V), IM. reflexivity.
  - cbn [rev]. rewrite map_app. cbn [map]. rewrite (st_arcN _ _ ST _ _ _ AN), (st_start _ _ ST B V).
    assert (KB: implb (inH C) (inH B) = true) by (rewrite <- (st_start _ _ ST B V); exact (arcs_closed _ _ _ K AN)).
    rewrite chainR_app_one by (destruct (map (rule_of G) (rev ch')); discriminate).
    rewrite (IH (st_valid _ _ ST _ _ _ AN) B KB), last_last, IM. reflexivity.
Qed.

Theorem sound_closed_confining : sound_tables G TR -> holders_ok = true -> confining G TR H.
Proof.
  intros ST K. unfold holders_ok in K. repeat (apply andb_true_iff in K as [K ?]).
  repeat match goal with Hn : negb _ = true |- _ => apply negb_true_iff in Hn end.
  split; [|split; [|split; [assumption|split; [assumption|unfold t4; repeat split; assumption]]]].
  - intros q l pl X. unfold plan_ok.
    destruct (st_plans _ _ ST _ _ _ _ (plansI_some TR _ _ _ X)) as [[E A]|(B & A & FC)].
    + rewrite E, (st_arcT _ _ ST _ _ _ A), N.eqb_refl. reflexivity.
    + rewrite (st_arcN _ _ ST _ _ _ A), N.eqb_refl. cbn [andb].
      exact (chain_confined ST K B l _ FC (st_valid _ _ ST _ _ _ A) _ (arcs_closed _ _ _ K A)).
  - exact (st_arcN _ _ ST).
Qed.

Definition plan_check : bool :=
  arcs_in_rule_ok G && starts_ok G && arcN_valid_ok G && arcs_selected_ok &&
  (let tab := chain_table in chains_known_ok tab && plans_ok tab) && follow_ok && holders_ok.

Theorem plan_check_tables : plan_check = true -> sound_tables G TR /\ complete_tables G TR FWT /\ confining G TR H.
Proof.
  unfold plan_check. intros K. cbv zeta in K. rewrite follow_ok_split, !andb_true_iff in K.
  destruct K as ((((((AR & SO) & AV) & SE) & KN & PL) & (F1 & F2) & NC) & HO).
  assert (ST: sound_tables G TR).
  { split; [apply rule_start_ok|apply rule_arcT_ok|apply rule_arcN_ok|apply plans_ok_sound|apply arcN_valid_sound]; assumption. }
  split; [exact ST|split; [|apply sound_closed_confining; assumption]].
  split; [apply rule_start_ok|apply rule_arcT_ok|apply rule_arcN_ok|apply plans_ok_complete; [apply arcN_valid_sound| |]
         |apply fw1_sound|apply fw2_sound|apply noconf_sound]; assumption.
Qed.
Lemma plan_check_sound : plan_check = true -> sound_tables G TR.
Proof. intros K. apply (plan_check_tables K). Qed.
Lemma plan_check_complete : plan_check = true -> complete_tables G TR FWT.
Proof. intros K. apply (plan_check_tables K). Qed.
Lemma plan_check_confining : plan_check = true -> confining G TR H.
Proof. intros K. apply (plan_check_tables K). Qed.
End PlanCheck.
