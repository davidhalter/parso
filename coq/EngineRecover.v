From Coq Require Import List NArith.
Import ListNotations.
Require Import Tok Engine LL1 LL1Inst LL1Engine EngineStep.
Open Scope N_scope.

(* C05 for RECOVERED trees (and for runs that use the missing-newline repair): every tree the engine returns, in both
   modes and for every token list, is the conversion of the collapsed form of a derivation with error markers in which
   every rule node - also those inside error nodes - is a complete instance of its rule: its children drive the rule's
   automaton from the start state to a final state, where
     - a leaf takes the terminal arc of its label, a rule node the nonterminal arc of its rule,
     - an error marker (error leaf / error node) stands for a possibly empty sequence of nonterminal arcs
       (the statement or block that could not be built),                                             [rr_err]
     - inside a suite the arc of `stmt` may be taken without a child (the fix-up at the end of error_recovery:
       a block all of whose statements went into error nodes),                                        [rr_suite]
     - inside a simple_stmt the arc of NEWLINE may be taken without a child (the final newline may be absent at
       the end of the file / of a block).                                                             [rr_nonl]
   What is stated is this shape and no more: a leaf RLeaf a x pairs a label with a tree without relating the two, and
   the rule R of the root is not said to be the start rule the parse was asked for.
   The last two relaxations are the documented tree conventions; the model does not tie rr_suite to the presence of an
   error marker in that suite (the implementation-side conformance predicate does). *)

Section Rec.
Variable G : gram.
Variable TR : list (N * list (label * plan)).
Notation mkn := (mk_node G).
Notation aT := (arcT G).
Notation aN := (arcN G).
Notation st := (startR G).
Notation ruleof := (rule_of G).

Inductive rd := RLeaf (a : label) (x : tree) | RNode (B : N) (kids : list rd) | RErrLeaf (x : tree) | RErrNode (kids : list rd).

Fixpoint rcollapse (d : rd) : tree :=
  match d with
  | RLeaf _ x => x
  | RErrLeaf x => x
  | RNode B kb => match kb with [k] => rcollapse k | _ => mkn B (map rcollapse kb) end
  | RErrNode kb => Node KErrorNode (map rcollapse kb)
  end.

Definition is_err (d : rd) : bool := match d with RErrLeaf _ | RErrNode _ => true | _ => false end.

Inductive nts : N -> N -> Prop :=
| nts_refl q : nts q q
| nts_step q B q1 q2 : aN q B = Some q1 -> nts q1 q2 -> nts q q2.

Inductive runR : N -> list rd -> N -> Prop :=
| rr_nil q : runR q [] q
| rr_leaf q a x q1 r q' : aT q a = Some q1 -> runR q1 r q' -> runR q (RLeaf a x :: r) q'
| rr_node q B kb q1 r q' : aN q B = Some q1 -> runR q1 r q' -> runR q (RNode B kb :: r) q'
| rr_err q e q1 r q' : is_err e = true -> nts q q1 -> runR q1 r q' -> runR q (e :: r) q'
| rr_suite q q1 r q' : ruleof q = r_suite G -> aN q (r_stmt G) = Some q1 -> runR q1 r q' -> runR q r q'
| rr_nonl q q1 r q' : ruleof q = r_simple_stmt G -> aT q (LType NEWLINE) = Some q1 -> runR q1 r q' -> runR q r q'.

Fixpoint rwf (d : rd) : Prop :=
  match d with
  | RLeaf _ _ => True
  | RErrLeaf _ => True
  | RNode B kb => validR G B /\ (exists qf, runR (st B) kb qf /\ final G qf = true) /\
                  (fix all (l : list rd) : Prop := match l with [] => True | k :: r => rwf k /\ all r end) kb
  | RErrNode kb => (fix all (l : list rd) : Prop := match l with [] => True | k :: r => rwf k /\ all r end) kb
  end.
Fixpoint all_rwf (l : list rd) : Prop := match l with [] => True | k :: r => rwf k /\ all_rwf r end.
Lemma rwf_node B kb : rwf (RNode B kb) <-> validR G B /\ (exists qf, runR (st B) kb qf /\ final G qf = true) /\ all_rwf kb.
Proof. reflexivity. Qed.
Lemma rwf_errnode kb : rwf (RErrNode kb) <-> all_rwf kb.
Proof. reflexivity. Qed.
Lemma all_rwf_app l1 l2 : all_rwf (l1 ++ l2) <-> all_rwf l1 /\ all_rwf l2.
Proof. induction l1 as [|k r IH]; simpl; [tauto|]. rewrite IH. tauto. Qed.

Lemma runR_app q l1 q1 : runR q l1 q1 -> forall l2 q2, runR q1 l2 q2 -> runR q (l1 ++ l2) q2.
Proof. induction 1; intros l2 q2 H2; cbn [app]; eauto using runR. Qed.

Lemma nts_trans a b c : nts a b -> nts b c -> nts a c.
Proof. induction 1 as [q|q B q1 q2 A N IH]; intros H; [exact H|]. eapply nts_step; [exact A|apply IH; exact H]. Qed.

Section Inv.
Hypothesis ST : sound_tables G TR.
Notation r_arcT := (st_arcT G TR ST).
Notation r_arcN := (st_arcN G TR ST).
Notation r_start := (st_start G TR ST).
Notation v_arcN := (st_valid G TR ST).

(* a frame holds the collapsed children kb of an instance of its rule under construction: they drive the rule's automaton
   from its start to q0, and q0 is linked to the frame's state - equal to it in the top frame, one nonterminal arc
   (of the rule of the frame above) before it in the frames below, which already stand behind the node being built *)
Definition FI (link : N -> N -> Prop) (fr : Engine.frame) : Prop :=
  exists kb q0, f_nodes fr = map rcollapse kb /\ all_rwf kb /\ runR (st (ruleof (f_dfa fr))) kb q0 /\ link q0 (f_dfa fr) /\
                validR G (ruleof (f_dfa fr)).
Definition lnk (B : N) (q0 q : N) : Prop := aN q0 B = Some q.
Fixpoint held (link : N -> N -> Prop) (s : list Engine.frame) : Prop :=
  match s with
  | [] => True
  | fr :: rest => FI link fr /\ held (lnk (ruleof (f_dfa fr))) rest
  end.
Definition SOKR := held eq.
Definition TopW := held nts.

Lemma FI_weaken (l1 l2 : N -> N -> Prop) fr : (forall a b, l1 a b -> l2 a b) -> FI l1 fr -> FI l2 fr.
Proof. intros W (kb & q0 & E & A & R & L & V). exists kb, q0. repeat split; auto. Qed.
(* the two ways a frame changes: it is moved along an arc of its rule, the link recording the arc ... *)
Lemma FI_move (l : N -> N -> Prop) fr q : FI eq fr -> ruleof q = ruleof (f_dfa fr) -> l (f_dfa fr) q -> FI l (goto q fr).
Proof. intros (kb & q0 & E & A & R & -> & V) RQ L. exists kb, (f_dfa fr). cbn [goto f_dfa f_nodes]. rewrite RQ. repeat split; auto. Qed.
(* ... and what the link stands for arrives at the end of its nodes *)
Lemma FI_app (l : N -> N -> Prop) fr es : FI l fr -> all_rwf es -> (forall q0, l q0 (f_dfa fr) -> runR q0 es (f_dfa fr)) ->
  FI eq (mkFr (f_dfa fr) (f_nodes fr ++ map rcollapse es)).
Proof.
  intros (kb & q0 & E & A & R & L & V) W RS. exists (kb ++ es), (f_dfa fr). cbn [f_dfa f_nodes].
  rewrite map_app, E, all_rwf_app. repeat split; try assumption. eapply runR_app; [exact R|apply RS, L].
Qed.
Lemma FI_leaf fr a x : FI (fun q0 q => aT q0 a = Some q) fr -> FI eq (put fr x).
Proof. intros F. apply (FI_app _ fr [RLeaf a x] F); [repeat split|]. intros q0 L. eapply rr_leaf; [exact L|apply rr_nil]. Qed.
Lemma FI_new (l : N -> N -> Prop) B q : validR G B -> ruleof q = B -> l (st B) q -> FI l (mkFr q []).
Proof. intros V <- L. exists [], (st (ruleof q)). cbn [f_dfa f_nodes]. repeat split; [apply rr_nil|exact L|exact V]. Qed.
Lemma FI_node fr : FI eq fr -> final G (f_dfa fr) = true ->
  exists kb, f_nodes fr = map rcollapse kb /\ rwf (RNode (ruleof (f_dfa fr)) kb).
Proof.
  intros (kb & q0 & E & A & R & -> & V) FQ. exists kb. split; [exact E|]. apply rwf_node.
  split; [exact V|split; [exists (f_dfa fr); split; assumption|exact A]].
Qed.
Lemma SOKR_move top r q : SOKR (top :: r) -> ruleof q = ruleof (f_dfa top) -> runR (f_dfa top) [] q -> SOKR (goto q top :: r).
Proof.
  intros [F C] RQ RS. split; [|cbn [goto f_dfa]; rewrite RQ; exact C]. unfold goto. rewrite <- (app_nil_r (f_nodes top)).
  apply (FI_app (fun a b => runR a [] b) (mkFr q (f_nodes top)) []); [apply FI_move; assumption|exact I|auto].
Qed.

Definition WI (fr : Engine.frame) : Prop := exists kb, f_nodes fr = map rcollapse kb /\ all_rwf kb.
Lemma FI_WI l fr : FI l fr -> WI fr.
Proof. intros (kb & q0 & E & A & _). exists kb. split; assumption. Qed.
Lemma WI_flat : forall l, Forall WI l -> exists KB, flat_map f_nodes l = map rcollapse KB /\ all_rwf KB.
Proof.
  induction l as [|fr r IH]; intros H; [exists []; split; [reflexivity|exact I]|].
  inversion H as [|x y (kb & E & A) HR]; subst. destruct (IH HR) as (KB & E2 & A2).
  exists (kb ++ KB). cbn [flat_map]. rewrite map_app, E, E2. split; [reflexivity|]. apply all_rwf_app. split; assumption.
Qed.

Lemma frame_node_rcollapse fr kb nd : f_nodes fr = map rcollapse kb -> frame_node G fr = POk nd -> nd = rcollapse (RNode (ruleof (f_dfa fr)) kb).
Proof.
  unfold frame_node. intros ->. destruct kb as [|k [|k2 kr]]; cbn [map rcollapse]; unfold mk_node; intros H;
    [rewrite H; reflexivity|inversion H; reflexivity|rewrite H; reflexivity].
Qed.

Lemma pop_ok tos rest s1 : final G (f_dfa tos) = true -> pop G (tos :: rest) = POk s1 -> SOKR (tos :: rest) -> SOKR s1.
Proof.
  intros FQ P [FT C]. destruct (FI_node _ FT FQ) as (kb & E & W).
  destruct (pop_inv G _ _ P) as (? & below & r & nd & [= <- ->] & CL & ->). destruct C as [FB CR].
  rewrite (frame_node_rcollapse _ _ _ E CL). split; [|exact CR].
  apply (FI_app _ below [RNode (ruleof (f_dfa tos)) kb] FB); [split; [exact W|exact I]|].
  intros q1 L. eapply rr_node; [exact L|apply rr_nil].
Qed.

Lemma push_chain : forall B a ch, first_chain N label N aT aN st B a ch -> validR G B ->
  forall base x, held (lnk B) base -> SOKR (add_top x (pushes ch base)).
Proof.
  induction 1 as [B a s1 A|B C a s ch A FC IH]; intros V base x CH; cbn [pushes fold_left].
  - assert (RS: ruleof s1 = B) by (rewrite (r_arcT _ _ _ A); apply r_start; exact V).
    split; [|cbn [put f_dfa]; rewrite RS; exact CH]. apply (FI_leaf (mkFr s1 []) a), (FI_new _ B); assumption.
  - assert (RS: ruleof s = B) by (rewrite (r_arcN _ _ _ A); apply r_start; exact V).
    apply IH; [eapply v_arcN; exact A|]. split; [apply (FI_new _ B); assumption|cbn [f_dfa]; rewrite RS; exact CH].
Qed.

Lemma shift_ok tos rest pl a x : SOKR (tos :: rest) -> trans TR (f_dfa tos) a = Some pl -> SOKR (add_top x (planned pl tos rest)).
Proof.
  intros [FT CR] TRS.
  unfold planned. destruct (st_plans G TR ST _ _ _ _ (plansI_some TR _ _ _ TRS)) as [[-> AT]|(B & AN & FC)].
  - pose proof (r_arcT _ _ _ AT) as RS. split; [|cbn [put goto f_dfa]; rewrite RS; exact CR].
    apply (FI_leaf (goto (p_next pl) tos) a), FI_move; assumption.
  - pose proof (r_arcN _ _ _ AN) as RS. apply (push_chain _ _ _ FC (v_arcN _ _ _ AN)).
    split; [apply FI_move; assumption|cbn [goto f_dfa]; rewrite RS; exact CR].
Qed.

Lemma mark_ok s e : TopW s -> is_err e = true -> rwf e -> SOKR (add_top (rcollapse e) s).
Proof.
  destruct s as [|top r]; [intros; exact I|]. intros [F C] IE W. split; [|exact C].
  apply (FI_app _ top [e] F); [split; [exact W|exact I]|]. intros q0 L. eapply rr_err; [exact IE|exact L|apply rr_nil].
Qed.

(* the frame recovery stops at has only nonterminal arcs between its nodes and its state: what rr_err lets a marker stand for *)
Lemma held_cut : forall gone (link : N -> N -> Prop) below r, (forall a b, link a b -> nts a b) -> held link (gone ++ below :: r) ->
  Forall WI gone /\ TopW (below :: r).
Proof.
  induction gone as [|g gone IH]; intros link below r LN [F C]; [split; [constructor|split; [exact (FI_weaken _ _ _ LN F)|exact C]]|].
  destruct (IH _ _ _ (fun a b L => nts_step _ _ _ _ L (nts_refl _)) C) as [W T]. split; [constructor; [exact (FI_WI _ _ F)|exact W]|exact T].
Qed.
Lemma SOKR_cut gone below r : SOKR (gone ++ below :: r) -> Forall WI gone /\ TopW (below :: r).
Proof. apply held_cut. intros a b ->. apply nts_refl. Qed.

Lemma fix_suite_ok s : SOKR s -> SOKR (fix_suite G s).
Proof.
  intros S. destruct (fix_suite_fixed G s) as [|top r q RS AN]; [exact S|]. change (aN (f_dfa top) (r_stmt G) = Some q) in AN.
  apply SOKR_move; [exact S|exact (r_arcN _ _ _ AN)|]. eapply rr_suite; [exact RS|exact AN|apply rr_nil].
Qed.

Lemma added_ok t m f p p' : added G TR t m f p p' -> SOKR (stack p) -> SOKR (stack p').
Proof.
  induction 1 as [f tos rest om ic pl T|m f tos rest om ic s' p' T F P R IH|m f tos rest om ic pl p' T F P R IH
                 |m f tos rest om ic gone below r n ns s2 om2 ic2 _ [E _] AN R IH|f tos rest om ic gone below r _ [E _] _];
    intros S; cbn [stack] in *.
  - eapply shift_ok; eassumption.
  - apply IH. eapply pop_ok; eassumption.
  - apply IH. destruct (repair_some G TR _ _ _ P) as (RS & TN & _ & PE).
    destruct (st_plans G TR ST _ _ _ _ (plansI_some TR _ _ _ TN)) as [[_ AT]|(B & _ & FC)]; [|rewrite PE in FC; inversion FC].
    apply SOKR_move; [exact S|exact (r_arcT _ _ _ AT)|]. eapply rr_nonl; [exact RS|exact AT|apply rr_nil].
  - apply fix_suite_ok, IH. rewrite E in S. destruct (SOKR_cut _ _ _ S) as [W T]. rewrite <- AN.
    destruct (WI_flat _ (Forall_rev W)) as (KB & -> & A).
    apply (mark_ok (below :: r) (RErrNode KB)); [exact T|reflexivity|apply rwf_errnode; exact A].
  - apply fix_suite_ok. rewrite E in S. apply (mark_ok (below :: r) (RErrLeaf (err_leaf t))); [apply (SOKR_cut _ _ _ S)|reflexivity|exact I].
Qed.

Theorem recovered_conform_gen : forall recover S0 toks t, parse G TR recover S0 toks = POk t ->
  exists R kb, rwf (RNode R kb) /\ convert_node G R (map rcollapse kb) = POk t.
Proof.
  intros recover S0 toks t H.
  destruct (parse_inv G TR recover (fun _ => SOKR) (fun t _ m f p p' _ => added_ok t m f p p') (fun _ _ _ _ S => S) pop_ok _ _ _ H) as (root & [FT _] & FQ & CV).
  - intros q0 A. destruct (start_of G _ _ A) as [V <-]. split; [|exact I]. apply (FI_new _ S0); [exact V|apply r_start, V|reflexivity].
  - destruct (FI_node _ FT FQ) as (kb & E & W). exists (ruleof (f_dfa root)), kb. rewrite <- E. split; assumption.
Qed.
End Inv.

Hypothesis OK : tables_sound_ok G TR = true.

Lemma nts_rule a b : nts a b -> ruleof b = ruleof a.
Proof. induction 1 as [q|q B q1 q2 A N IH]; [reflexivity|]. rewrite IH. eapply (st_arcN G TR (tables_sound_ok_sound G TR OK)); exact A. Qed.

Theorem recovered_conform : forall recover S0 toks t, parse G TR recover S0 toks = POk t ->
  exists R kb, rwf (RNode R kb) /\ convert_node G R (map rcollapse kb) = POk t.
Proof. exact (recovered_conform_gen (tables_sound_ok_sound G TR OK)). Qed.
End Rec.
Print Assumptions recovered_conform.
