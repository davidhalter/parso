From Coq Require Import List NArith.
Import ListNotations.
Require Import Regex.
Open Scope N_scope.

Fixpoint groups (r : re) : list nat :=
  match r with
  | Cat a b | Alt a b => groups a ++ groups b
  | Opt a | Star a | Plus a | NLook a => groups a
  | Group n a => n :: groups a
  | _ => []
  end.

Definition ext (r : re) (cs cs' : caps) : Prop :=
  exists new, cs' = new ++ cs /\ forall g sp, In (g, sp) new -> In g (groups r).
(* called r i rest cs k out: k produced out on a suffix of rest, at the position advanced by what was consumed, with the
   captures extended only by groups of r.  This is all m_sound says of a successful m r. *)
Definition called (r : re) (i : N) (rest : list N) (cs : caps)
           (k : N -> list N -> caps -> option res) (out : res) : Prop :=
  exists consumed rest' cs',
    rest = consumed ++ rest' /\ k (i + N.of_nat (length consumed)) rest' cs' = Some out /\ ext r cs cs'.

Lemma ext_refl r cs : ext r cs cs.
Proof. exists []. split; [reflexivity|]. intros g sp []. Qed.
Lemma ext_weaken r r' cs cs' : incl (groups r) (groups r') -> ext r cs cs' -> ext r' cs cs'.
Proof. intros H (new & E & Hn). exists new. split; [exact E|]. intros g sp Hin. apply H. eapply Hn; exact Hin. Qed.
Lemma ext_trans r cs1 cs2 cs3 : ext r cs1 cs2 -> ext r cs2 cs3 -> ext r cs1 cs3.
Proof.
  intros (n1 & E1 & H1) (n2 & E2 & H2). exists (n2 ++ n1). split; [subst; rewrite app_assoc; reflexivity|].
  intros g sp Hin. apply in_app_or in Hin as [Hin|Hin]; eauto.
Qed.

Lemma called_here r i rest cs k out : k i rest cs = Some out -> called r i rest cs k out.
Proof.
  intros H. exists [], rest, cs. split; [reflexivity|]. split; [|apply ext_refl].
  simpl. rewrite N.add_0_r. exact H.
Qed.
Lemma called_one r i c t cs k out : k (i + 1) t cs = Some out -> called r i (c :: t) cs k out.
Proof. intros H. exists [c], t, cs. split; [reflexivity|]. split; [exact H|apply ext_refl]. Qed.

Lemma called_weaken r r' i rest cs k out : incl (groups r) (groups r') ->
  called r i rest cs k out -> called r' i rest cs k out.
Proof.
  intros G (c1 & rest1 & cs1 & E1 & K1 & X1). exists c1, rest1, cs1.
  split; [exact E1|]. split; [exact K1|]. eapply ext_weaken; [exact G|exact X1].
Qed.

Lemma called_then r1 r2 r i rest cs k1 k out :
  incl (groups r1) (groups r) -> incl (groups r2) (groups r) ->
  called r1 i rest cs k1 out ->
  (forall i' r' c' o, k1 i' r' c' = Some o -> called r2 i' r' c' k o) ->
  called r i rest cs k out.
Proof.
  intros G1 G2 (c1 & rest1 & cs1 & E1 & K1 & X1) IH2.
  destruct (IH2 _ _ _ _ K1) as (c2 & rest2 & cs2 & E2 & K2 & X2).
  exists (c1 ++ c2), rest2, cs2. split; [subst; rewrite app_assoc; reflexivity|]. split.
  - rewrite app_length, Nat2N.inj_add, N.add_assoc. exact K2.
  - eapply ext_trans; [eapply ext_weaken; [exact G1|exact X1]|eapply ext_weaken; [exact G2|exact X2]].
Qed.

(* the `fix` written out twice in m is convertible with loop_of a k; that is how the Star and Plus cases of m_sound
   apply loop_sound to what `simpl` leaves of m *)
Definition loop_of (a : re) (k : N -> list N -> caps -> option res) :=
  fix loop (fuel : nat) (i : N) (rest : list N) (cs : caps) {struct fuel} : option res :=
    match fuel with
    | O => k i rest cs
    | S f =>
        match m a i rest cs (fun i' r' c' => if i' =? i then None else loop f i' r' c') with
        | Some x => Some x
        | None => k i rest cs
        end
    end.

Lemma loop_sound a k :
  (forall i rest cs k' o, m a i rest cs k' = Some o -> called a i rest cs k' o) ->
  forall fuel i rest cs o, loop_of a k fuel i rest cs = Some o -> called a i rest cs k o.
Proof.
  intros IHa. induction fuel as [|f IHf]; intros i rest cs o H; simpl in H; [apply called_here; exact H|].
  destruct (m a i rest cs (fun i' r' c' => if i' =? i then None else loop_of a k f i' r' c')) as [x|] eqn:E;
    [|apply called_here; exact H].
  inversion H; subst x. apply IHa in E.
  eapply (called_then a a); [apply incl_refl|apply incl_refl|exact E|].
  intros i' r' c' o'. cbv beta. destruct (i' =? i); [discriminate|apply IHf].
Qed.

Theorem m_sound : forall r i rest cs k o, m r i rest cs k = Some o -> called r i rest cs k o.
Proof.
  induction r as [|c|c| |neg items|a IHa b IHb|a IHa b IHb|a IHa|a IHa|a IHa|n a IHa|a IHa| |];
    intros i rest cs k o H; simpl in H.
  2-5: destruct rest as [|x t]; [discriminate|]; apply called_one.
  - apply called_here; exact H.
  - destruct (x =? c); [exact H|discriminate].
  - destruct (x =? c); [discriminate|exact H].
  - destruct (x =? 10); [discriminate|exact H].
  - destruct (xorb neg (in_set x items)); [exact H|discriminate].
  - eapply (called_then a b); [apply incl_appl, incl_refl|apply incl_appr, incl_refl|apply IHa; exact H|].
    intros i' r' c' o'. apply IHb.
  - destruct (m a i rest cs k) as [x|] eqn:E.
    + inversion H; subst x. apply (called_weaken a); [apply incl_appl, incl_refl|apply IHa; exact E].
    + apply (called_weaken b); [apply incl_appr, incl_refl|apply IHb; exact H].
  - destruct (m a i rest cs k) as [x|] eqn:E.
    + inversion H; subst x. apply IHa in E. exact E.
    + apply called_here; exact H.
  - apply (loop_sound a k IHa (S (length rest))). exact H.
  - eapply (called_then a a); [apply incl_refl|apply incl_refl|apply IHa; exact H|].
    intros i' r' c' o'. apply (loop_sound a k IHa (S (length r'))).
  - eapply (called_then a (Group n a)); [apply incl_tl, incl_refl|apply incl_refl|apply IHa; exact H|].
    intros i' r' c' o' K. exists [], r', ((n, (i, i')) :: c'). split; [reflexivity|].
    split; [simpl; rewrite N.add_0_r; exact K|].
    exists [(n, (i, i'))]. split; [reflexivity|]. intros g sp [E|[]]. inversion E. left; reflexivity.
  - destruct (m a i rest cs (fun i' _ c' => Some (i', c'))); [discriminate|]. apply called_here; exact H.
  - destruct rest as [|x [|y t]]; [apply called_here; exact H| |discriminate].
    destruct (x =? 10); [apply called_here; exact H|discriminate].
  - destruct rest; [apply called_here; exact H|discriminate].
Qed.
Print Assumptions m_sound.

(* On words over an alphabet A, the parts of a regex that cannot start with a letter of A play no part: prune A r
   drops them, and m cannot tell the difference. *)
Definition Fail : re := CSet false [].
Definition is_fail (r : re) : bool := match r with CSet false [] => true | _ => false end.
Lemma is_fail_eq r : is_fail r = true -> r = Fail.
Proof. destruct r as [| | | |[|] [|]| | | | | | | | |]; try discriminate. reflexivity. Qed.
Lemma m_fail i rest cs k : m Fail i rest cs k = None.
Proof. destruct rest; reflexivity. Qed.

Section Prune.
Variable A : list N.
Fixpoint prune (r : re) : re :=
  match r with
  | Chr c => if existsb (N.eqb c) A then r else Fail
  | CSet false items => if existsb (fun x => in_set x items) A then r else Fail
  | Cat a b => let pa := prune a in if is_fail pa then Fail else Cat pa (prune b)
  | Alt a b => let pa := prune a in let pb := prune b in if is_fail pa then pb else if is_fail pb then pa else Alt pa pb
  | Opt a => let pa := prune a in if is_fail pa then Eps else Opt pa
  | Star a => let pa := prune a in if is_fail pa then Eps else Star pa
  | Plus a => let pa := prune a in if is_fail pa then Fail else Plus pa
  | Group n a => let pa := prune a in if is_fail pa then Fail else Group n pa
  | NLook a => NLook (prune a)
  | _ => r
  end.

Definition over (l : list N) : Prop := Forall (fun x => In x A) l.
(* two continuations that agree on the words over A *)
Definition agree (k k' : N -> list N -> caps -> option res) : Prop := forall i r c, over r -> k i r c = k' i r c.

Lemma loop_agree a pa : (forall i rest cs k k', over rest -> agree k k' -> m pa i rest cs k = m a i rest cs k') ->
  forall k k', agree k k' -> forall fuel, agree (loop_of pa k fuel) (loop_of a k' fuel).
Proof.
  intros IH k k' K. induction fuel as [|f IHf]; intros i rest cs O; cbn [loop_of]; [exact (K i rest cs O)|].
  rewrite (IH i rest cs _ (fun i' r' c' => if i' =? i then None else loop_of a k' f i' r' c') O), (K i rest cs O); [reflexivity|].
  intros i' r' c' O'. destruct (i' =? i); [reflexivity|exact (IHf i' r' c' O')].
Qed.

(* A part that prunes to Fail cannot match on words over A (by the statement below for that part, read from right to left) *)
Lemma pruned_away a : (forall i rest cs k k', over rest -> agree k k' -> m (prune a) i rest cs k = m a i rest cs k') ->
  is_fail (prune a) = true -> forall i rest cs k, over rest -> m a i rest cs k = None.
Proof.
  intros IH F i rest cs k O. rewrite <- (IH i rest cs k k O) by (intros ? ? ? _; reflexivity). rewrite (is_fail_eq _ F). apply m_fail.
Qed.

Lemma prune_ok : forall r i rest cs k k', over rest -> agree k k' -> m (prune r) i rest cs k = m r i rest cs k'.
Proof.
  induction r as [|c|c| |neg items|a IHa b IHb|a IHa b IHb|a IHa|a IHa|a IHa|n a IHa|a IHa| |]; intros i rest cs k k' O K; cbn [prune].
  - exact (K i rest cs O).
  - (* Chr *) destruct (existsb (N.eqb c) A) eqn:E.
    + destruct rest as [|x t]; [reflexivity|]. cbn [m]. destruct (x =? c); [apply K; inversion O; assumption|reflexivity].
    + rewrite m_fail. destruct rest as [|x t]; [reflexivity|]. cbn [m]. destruct (x =? c) eqn:X; [|reflexivity].
      apply N.eqb_eq in X. subst x. inversion O as [|? ? I _]; subst.
      assert (existsb (N.eqb c) A = true) by (apply existsb_exists; exists c; split; [exact I|apply N.eqb_refl]). congruence.
  - destruct rest as [|x t]; [reflexivity|]. cbn [m]. destruct (x =? c); [reflexivity|apply K; inversion O; assumption].
  - destruct rest as [|x t]; [reflexivity|]. cbn [m]. destruct (x =? 10); [reflexivity|apply K; inversion O; assumption].
  - (* CSet *) assert (SAME: m (CSet neg items) i rest cs k = m (CSet neg items) i rest cs k').
    { destruct rest as [|x t]; [reflexivity|]. cbn [m]. destruct (xorb neg (in_set x items)); [apply K; inversion O; assumption|reflexivity]. }
    destruct neg; [exact SAME|]. destruct (existsb (fun x => in_set x items) A) eqn:E; [exact SAME|].
    rewrite m_fail. destruct rest as [|x t]; [reflexivity|]. cbn [m]. destruct (in_set x items) eqn:X; [|reflexivity].
    inversion O as [|? ? I _]; subst.
    assert (existsb (fun x => in_set x items) A = true) by (apply existsb_exists; exists x; split; assumption). congruence.
  - (* Cat *) cbv zeta. destruct (is_fail (prune a)) eqn:F.
    + rewrite m_fail. cbn [m]. rewrite (pruned_away a IHa F); [reflexivity|exact O].
    + cbn [m]. apply IHa; [exact O|]. intros i' r' c' O'. apply IHb; assumption.
  - (* Alt *) cbv zeta. cbn [m]. rewrite <- (IHb i rest cs k k' O K). destruct (is_fail (prune a)) eqn:Fa.
    + rewrite (pruned_away a IHa Fa _ _ _ _ O). reflexivity.
    + rewrite <- (IHa i rest cs k k' O K). destruct (is_fail (prune b)) eqn:Fb; [|reflexivity].
      rewrite (is_fail_eq _ Fb), m_fail. destruct (m (prune a) i rest cs k); reflexivity.
  - (* Opt *) cbv zeta. cbn [m]. rewrite <- (K i rest cs O). destruct (is_fail (prune a)) eqn:F.
    + rewrite (pruned_away a IHa F _ _ _ _ O). reflexivity.
    + rewrite <- (IHa i rest cs k k' O K). reflexivity.
  - (* Star *) cbv zeta. change (m (Star a) i rest cs k') with (loop_of a k' (S (length rest)) i rest cs).
    destruct (is_fail (prune a)) eqn:F.
    + cbn [m loop_of]. rewrite (pruned_away a IHa F _ _ _ _ O). exact (K i rest cs O).
    + change (m (Star (prune a)) i rest cs k) with (loop_of (prune a) k (S (length rest)) i rest cs).
      exact (loop_agree a (prune a) IHa k k' K _ i rest cs O).
  - (* Plus *) cbv zeta. change (m (Plus a) i rest cs k') with (m a i rest cs (fun i0 r0 c0 => loop_of a k' (S (length r0)) i0 r0 c0)).
    destruct (is_fail (prune a)) eqn:F.
    + rewrite m_fail, (pruned_away a IHa F _ _ _ _ O). reflexivity.
    + change (m (Plus (prune a)) i rest cs k) with (m (prune a) i rest cs (fun i0 r0 c0 => loop_of (prune a) k (S (length r0)) i0 r0 c0)).
      apply IHa; [exact O|]. intros i0 r0 c0 O0. exact (loop_agree a (prune a) IHa k k' K _ i0 r0 c0 O0).
  - (* Group *) cbv zeta. destruct (is_fail (prune a)) eqn:F.
    + rewrite m_fail. cbn [m]. rewrite (pruned_away a IHa F _ _ _ _ O). reflexivity.
    + cbn [m]. apply IHa; [exact O|]. intros i' r' c' O'. apply K. exact O'.
  - (* NLook *) cbn [m]. rewrite (IHa i rest cs (fun i' _ c' => Some (i', c')) (fun i' _ c' => Some (i', c')) O); [|intros ? ? ? _; reflexivity].
    rewrite (K i rest cs O). reflexivity.
  - destruct rest as [|x [|y t]]; cbn [m]; [exact (K i [] cs O)| |reflexivity]. destruct (x =? 10); [exact (K i [x] cs O)|reflexivity].
  - destruct rest; cbn [m]; [exact (K i [] cs O)|reflexivity].
Qed.
End Prune.
