From Coq Require Import List NArith Lia.
Import ListNotations.
Require Import Regex Tok TokSpec.
Open Scope N_scope.

(* C09 / C02: the shape of the token stream.
   Whenever the tokenizer model returns tokens, the stream is  body ++ [ENDMARKER]  where, walking `body` with a
   depth counter that starts at (length of the initial indentation stack - 1):
     - no token of body is an ENDMARKER,
     - every INDENT / DEDENT token has empty string and empty prefix,
     - INDENT increments, DEDENT decrements the counter, which never goes below zero,
     - the counter is 0 at the end (INDENT and DEDENT are balanced over the whole stream). *)

Definition zero (t : Token) : bool := is_nil (ts t) && is_nil (tpre t).
Definition step (o : option nat) (t : Token) : option nat :=
  match o with
  | None => None
  | Some n =>
    match ty t with
    | INDENT => if zero t then Some (S n) else None
    | DEDENT => if zero t then match n with S k => Some k | O => None end else None
    | ENDMARKER => None
    | _ => Some n
    end
  end.
Definition run (n : nat) (toks : list Token) : option nat := fold_left step toks (Some n).
Definition depth (inds : list N) : nat := pred (length inds).

Lemma fold_none l : fold_left step l None = None.
Proof. exact (walk_none step (fun _ => eq_refl) l). Qed.
Lemma run_app n a b m : run n a = Some m -> run n (a ++ b) = run m b.
Proof. exact (walk_app step n a b m). Qed.
Lemma run_nil n : run n [] = Some n.
Proof. reflexivity. Qed.
Lemma run_ords l : ords l -> forall n, run n l = Some n.
Proof.
  induction 1 as [|t l O _ IH]; intros n; [reflexivity|]. unfold run. simpl. destruct (ty t); try discriminate; apply IH.
Qed.

(* the walk follows the height of the indentation stack, one above the counter *)
Lemma blks_run p h bl h' : blks p h bl h' -> forall k, h = S k -> exists k', run k bl = Some k' /\ h' = S k'.
Proof.
  induction 1 as [h|h bl h' _ IH|h bl h' _ IH|h bl h' l c _ IH]; intros k E.
  - exists k. split; [reflexivity|exact E].
  - apply (IH (S k)). rewrite E. reflexivity.
  - injection E as <-. apply (IH h eq_refl).
  - apply (IH k E).
Qed.

Section Shape.
Variable C : coll.
Variable isident : str -> bool.
Variable isspace : N -> bool.

Lemma round_run line ln pfx start h s' toks le : round line ln pfx start h s' toks le -> forall k, h = S k ->
  exists k', run k toks = Some k' /\ length (indents s') = S k'.
Proof.
  intros R k E. destruct R as [s' bl ps q B [_ O] _ _ _ _|s' le L _ _|s' bl B _ _ _ _ _].
  - destruct (blks_run _ _ _ _ B k E) as (k' & R & E').
    exists k'. split; [|exact E']. rewrite (run_app _ _ _ _ R). apply run_ords, place_ords, O.
  - exists k. split; [reflexivity|rewrite L; exact E].
  - exact (blks_run _ _ _ _ B k E).
Qed.

Lemma body_run : forall s line pos s' toks le k,
  body C isident isspace s line pos = Ok (s', toks, le) -> contstr s = [] -> length (indents s) = S k ->
  exists k', run k toks = Some k' /\ length (indents s') = S k'.
Proof.
  intros s line pos s' toks le k H CS L.
  destruct (body_round _ _ _ _ _ _ _ _ _ H CS) as (s1 & toks1 & oe & p & FS & R).
  destruct (fround_frame _ _ _ _ _ _ _ FS) as (_ & _ & _ & I1 & O1). pose proof (run_ords _ O1 k) as R1.
  rewrite <- I1 in L. destruct oe as [e|].
  - destruct R as (-> & -> & ->). exists k. split; assumption.
  - destruct R as (_ & ws & start & lim & (toksB & -> & R & _) & _). rewrite (run_app _ _ _ _ R1). exact (round_run _ _ _ _ _ _ _ _ R k L).
Qed.

Theorem tok_shape : forall lines inds sl sc first toks,
  tokenize_lines C isident isspace lines inds sl sc first = Ok toks -> inds <> [] ->
  exists body e, toks = body ++ [e] /\ ty e = ENDMARKER /\ ts e = [] /\ run (depth inds) body = Some O.
Proof.
  intros lines inds sl sc first toks H NE. destruct (tokenize_lines_tail _ _ _ _ _ _ _ _ _ H) as (s & out & bl & LL & -> & B3 & _).
  assert (L0: length inds = S (depth inds)) by (destruct inds; [contradiction|reflexivity]).
  (* a STRING token does not move the counter, and the bookkeeping between rounds does not touch the stack *)
  destruct (walk_lines_loop C isident isspace nat step (fun k s => length (indents s) = S k) (fun _ _ _ _ _ H => H) body_run
              (fun _ _ k _ H => ex_intro _ k (conj eq_refl H)) (fun _ _ _ _ H => H) _ _ _ _ _ _ _ (depth inds) _ LL eq_refl L0) as (k & R & L).
  exists (out ++ flush s ++ bl), (mkTok ENDMARKER [] (lnum s) (max_ s) (addp s)).
  split; [rewrite <- !app_assoc; reflexivity|]. split; [reflexivity|]. split; [reflexivity|].
  rewrite (run_app _ _ _ _ R), (run_app _ _ _ _ (run_ords _ (flush_ords s) _)).
  destruct (blks_run _ _ _ _ B3 k) as (k' & R' & E);
    [destruct (indents s); [discriminate|exact L]|]. injection E as <-. exact R'.
Qed.
End Shape.

Definition count (k : ttype -> bool) (l : list Token) : nat := length (filter (fun t => k (ty t)) l).
Definition is_indent (t : ttype) := match t with INDENT => true | _ => false end.
Definition is_dedent (t : ttype) := match t with DEDENT => true | _ => false end.
Definition is_end (t : ttype) := match t with ENDMARKER => true | _ => false end.

Lemma run_cons n t l : run n (t :: l) = match step (Some n) t with Some m => run m l | None => None end.
Proof. unfold run. cbn [fold_left]. destruct (step (Some n) t); [reflexivity|apply fold_none]. Qed.

Lemma run_balance : forall l n m, run n l = Some m -> (n + count is_indent l = m + count is_dedent l)%nat.
Proof.
  induction l as [|t l IH]; intros n m H; [inversion H; unfold count; simpl; lia|].
  rewrite run_cons in H. unfold step in H. unfold count in *. simpl.
  destruct (ty t) eqn:T; simpl; try (apply IH in H; lia).
  - destruct (zero t); [|discriminate]. apply IH in H. lia.
  - destruct (zero t); [|discriminate]. destruct n as [|k]; [discriminate|]. apply IH in H. lia.
  - discriminate.
Qed.
Lemma run_prefix : forall a b n m, run n (a ++ b) = Some m -> exists k, run n a = Some k.
Proof.
  intros a b n m H. destruct (run n a) as [k|] eqn:E; [exists k; reflexivity|].
  unfold run in *. rewrite fold_left_app, E, fold_none in H. discriminate.
Qed.
Lemma run_never_negative : forall a b n m, run n (a ++ b) = Some m -> (count is_dedent a <= n + count is_indent a)%nat.
Proof. intros a b n m H. destruct (run_prefix _ _ _ _ H) as (k & K). apply run_balance in K. lia. Qed.
Lemma run_tokens : forall l n m t, run n l = Some m -> In t l ->
  ty t <> ENDMARKER /\ (ty t = INDENT \/ ty t = DEDENT -> ts t = [] /\ tpre t = []).
Proof.
  induction l as [|x l IH]; intros n m t H I; [contradiction|]. rewrite run_cons in H.
  destruct (step (Some n) x) as [k|] eqn:S; [|discriminate].
  destruct I as [I|I]; [subst x|eapply IH; eassumption].
  unfold step, zero in S. split.
  - intros E. rewrite E in S. discriminate.
  - intros [E|E]; rewrite E in S; destruct (ts t); destruct (tpre t); try discriminate; split; reflexivity.
Qed.
