From Coq Require Import List NArith.
Import ListNotations.
Require Import Tok Engine.
Open Scope N_scope.

(* Model of NodeOrLeaf.get_code / BaseNode._get_code_for_children / Leaf.get_code
   (parso/tree.py) on the tree type produced by the Engine model. *)

Definition leaf_text (t : tree) : str :=
  match t with Leaf _ v p _ _ => p ++ v | Node _ _ => [] end.

Fixpoint get_code (t : tree) : str :=
  match t with
  | Leaf _ v p _ _ => p ++ v
  | Node _ cs => (fix go (l : list tree) : str := match l with [] => [] | c :: r => get_code c ++ go r end) cs
  end.

(* include_prefix=False: the first leaf drops its prefix *)
Fixpoint get_code_noprefix (t : tree) : str :=
  match t with
  | Leaf _ v _ _ _ => v
  | Node _ cs => match cs with
                 | [] => []
                 | c :: r => get_code_noprefix c ++
                             (fix go (l : list tree) : str := match l with [] => [] | c :: r => get_code c ++ go r end) r
                 end
  end.

Fixpoint leaves (t : tree) : list tree :=
  match t with
  | Leaf _ _ _ _ _ => [t]
  | Node _ cs => (fix go (l : list tree) : list tree := match l with [] => [] | c :: r => leaves c ++ go r end) cs
  end.

Definition codes (l : list tree) : str := concat (map get_code l).
Definition leaves_l (l : list tree) : list tree := flat_map leaves l.

Lemma get_code_node k cs : get_code (Node k cs) = codes cs.
Proof. unfold codes. simpl. induction cs as [|c r IH]; simpl; [reflexivity|]. rewrite IH. reflexivity. Qed.
Lemma leaves_node k cs : leaves (Node k cs) = leaves_l cs.
Proof. unfold leaves_l. simpl. induction cs as [|c r IH]; simpl; [reflexivity|]. rewrite IH. reflexivity. Qed.

Section TreeInd.
Variable P : tree -> Prop.
Hypothesis Hleaf : forall k v p l c, P (Leaf k v p l c).
Hypothesis Hnode : forall k cs, Forall P cs -> P (Node k cs).
Fixpoint tree_ind' (t : tree) : P t :=
  match t with
  | Leaf k v p l c => Hleaf k v p l c
  | Node k cs => Hnode k cs ((fix go (l : list tree) : Forall P l :=
                                match l with [] => Forall_nil P | c :: r => Forall_cons c (tree_ind' c) (go r) end) cs)
  end.
End TreeInd.

Lemma codes_leaves_of cs : Forall (fun t => get_code t = concat (map leaf_text (leaves t))) cs ->
  codes cs = concat (map leaf_text (leaves_l cs)).
Proof.
  unfold codes, leaves_l. induction 1 as [|c r Hc _ IH]; simpl; [reflexivity|].
  rewrite map_app, concat_app, Hc, IH. reflexivity.
Qed.

Theorem get_code_leaves : forall t, get_code t = concat (map leaf_text (leaves t)).
Proof.
  induction t as [k v p l c|k cs IH] using tree_ind'; [simpl; symmetry; apply app_nil_r|].
  rewrite get_code_node, leaves_node. apply codes_leaves_of, IH.
Qed.

Lemma codes_leaves cs : codes cs = concat (map leaf_text (leaves_l cs)).
Proof. apply codes_leaves_of, Forall_forall. intros t _. apply get_code_leaves. Qed.

Fixpoint subtree (t : tree) (path : list nat) : option tree :=
  match path with
  | [] => Some t
  | i :: p => match t with
              | Node _ cs => match nth_error cs i with Some c => subtree c p | None => None end
              | Leaf _ _ _ _ _ => None
              end
  end.

Lemma codes_split cs i c : nth_error cs i = Some c ->
  codes cs = codes (firstn i cs) ++ get_code c ++ codes (skipn (S i) cs).
Proof.
  revert i. induction cs as [|x r IH]; intros i H; [destruct i; discriminate|].
  destruct i as [|i]; simpl in H.
  - inversion H; subst. unfold codes. simpl. reflexivity.
  - unfold codes in *. simpl. rewrite (IH i H). rewrite app_assoc. reflexivity.
Qed.

Fixpoint before (t : tree) (path : list nat) : str :=
  match path, t with
  | i :: p, Node _ cs => codes (firstn i cs) ++ match nth_error cs i with Some c => before c p | None => [] end
  | _, _ => []
  end.
Fixpoint after (t : tree) (path : list nat) : str :=
  match path, t with
  | i :: p, Node _ cs => match nth_error cs i with Some c => after c p | None => [] end ++ codes (skipn (S i) cs)
  | _, _ => []
  end.

Theorem subtree_slice : forall path t n, subtree t path = Some n ->
  get_code t = before t path ++ get_code n ++ after t path.
Proof.
  induction path as [|i p IH]; intros t n H; simpl in H.
  - inversion H; subst. destruct n; simpl; rewrite ?app_nil_r; reflexivity.
  - destruct t as [|k cs]; [discriminate|].
    destruct (nth_error cs i) as [c|] eqn:E; [|discriminate].
    rewrite get_code_node. rewrite (codes_split cs i c E). simpl. rewrite E.
    rewrite (IH c n H). rewrite <- !app_assoc. reflexivity.
Qed.

Fixpoint leaves_before (t : tree) (path : list nat) : list tree :=
  match path, t with
  | i :: p, Node _ cs => leaves_l (firstn i cs) ++ match nth_error cs i with Some c => leaves_before c p | None => [] end
  | _, _ => []
  end.

Theorem before_is_leaf_text : forall path t, before t path = concat (map leaf_text (leaves_before t path)).
Proof.
  induction path as [|i p IH]; intros t; simpl; [destruct t; reflexivity|].
  destruct t as [|k cs]; [reflexivity|].
  rewrite map_app, concat_app, <- codes_leaves.
  destruct (nth_error cs i) as [c|]; [rewrite IH|]; reflexivity.
Qed.

Definition first_prefix (t : tree) : str :=
  match leaves t with Leaf _ _ p _ _ :: _ => p | _ => [] end.

Definition nonempty_nodes : tree -> Prop :=
  fix ne (t : tree) : Prop :=
    match t with
    | Leaf _ _ _ _ _ => True
    | Node _ cs => cs <> [] /\ (fix all (l : list tree) : Prop := match l with [] => True | c :: r => ne c /\ all r end) cs
    end.

Lemma all_Forall {A} (P : A -> Prop) l :
  (fix all (l : list A) : Prop := match l with [] => True | c :: r => P c /\ all r end) l <-> Forall P l.
Proof. induction l as [|c r IH]; [split; constructor|]. rewrite Forall_cons_iff, IH. reflexivity. Qed.

Lemma nonempty_node k cs : nonempty_nodes (Node k cs) <-> cs <> [] /\ Forall nonempty_nodes cs.
Proof. rewrite <- all_Forall. reflexivity. Qed.

Lemma leaves_nonempty : forall t, nonempty_nodes t -> leaves t <> [].
Proof.
  induction t as [|k cs IH] using tree_ind'; intros W; [discriminate|].
  apply nonempty_node in W as [NE W]. destruct cs as [|c r]; [contradiction|].
  rewrite leaves_node. unfold leaves_l. simpl. intros E. apply app_eq_nil in E as [E _].
  exact (Forall_inv IH (Forall_inv W) E).
Qed.

Theorem get_code_noprefix_spec : forall t, nonempty_nodes t ->
  get_code t = first_prefix t ++ get_code_noprefix t.
Proof.
  induction t as [k v p l c|k cs IH] using tree_ind'; intros W; [reflexivity|].
  apply nonempty_node in W as [NE W]. destruct cs as [|c r]; [contradiction|].
  pose proof (Forall_inv IH (Forall_inv W)) as Hc. pose proof (leaves_nonempty c (Forall_inv W)) as N0.
  change (get_code_noprefix (Node k (c :: r))) with (get_code_noprefix c ++ get_code (Node k r)).
  rewrite !get_code_node. unfold first_prefix in *. rewrite leaves_node. unfold codes, leaves_l. simpl.
  destruct (leaves c) as [|x xs]; [contradiction|]. simpl. rewrite Hc, app_assoc. reflexivity.
Qed.
