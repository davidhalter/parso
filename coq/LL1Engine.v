From Coq Require Import List NArith ZArith Bool Lia.
Import ListNotations.
Require Import Tok Engine LL1 LL1Inst EngineStep.
Open Scope N_scope.

(* Refinement: the fuelled add_token / feed / finish of Engine.v (the model that is extracted and
   compared with parso) realise the abstract plan-driven relation of LL1.v on the same tables.
   convert_node can fail in the model (PAttr / PIndex: the Python code would raise AttributeError /
   IndexError, e.g. a funcdef without parameters; PGuard: a guard of the model); such a failure is not a syntax error, so the
   statements are "the result is the derivation, or a conversion failure - never a rejection". *)

Lemma start_of (G : gram) B q0 : assocN B (g_start G) = Some q0 -> validR G B /\ startR G B = q0.
Proof. intros A. split; [exact (in_map fst _ _ (assocN_in _ _ _ A))|unfold startR; rewrite A; reflexivity]. Qed.

Definition aframe := (N * list tree)%type.
Definition fr_of (f : aframe) : Engine.frame := mkFr (fst f) (snd f).
Notation st_of_a := (map fr_of).

Section Refine.
Variable G : gram.
Variable TR : list (N * list (label * plan)).

Definition mk_node (r : N) (ns : list tree) : tree :=
  match convert_node G r ns with POk t => t | PErr _ => Node KErrorNode [] end.


Definition conv_err (e : perr) : Prop := e = PAttr \/ e = PIndex \/ e = PGuard.

Notation pops' := (pops tree N label N mk_node (final G) (rule_of G) (plansI TR)).
Notation shift' := (shift tree N label (plansI TR)).
Notation feed' := (LL1.feed tree N label N mk_node (final G) (rule_of G) (plansI TR)).

Lemma convert_node_err r ns e : convert_node G r ns = PErr e -> conv_err e.
Proof. exact (ends_err _ _ _ (convert_node_ends G r ns)). Qed.

Definition reaches {A} (r r' : pres A) : Prop := r = r' \/ exists e, conv_err e /\ r = PErr e.
Lemma reaches_bind {A B} (r : pres A) (k : A -> pres B) v w :
  reaches r (POk v) -> reaches (k v) w -> reaches (match r with POk x => k x | PErr e => PErr e end) w.
Proof. intros [->|(e & C & ->)] H; [exact H|right; exists e; split; [exact C|reflexivity]]. Qed.

Lemma convert_reaches r ns : reaches (convert_node G r ns) (POk (mk_node r ns)).
Proof.
  unfold mk_node. destruct (convert_node G r ns) eqn:E; [left; reflexivity|].
  right. eexists. split; [eapply convert_node_err; exact E|reflexivity].
Qed.

Lemma pop_refines q ns q2 ns2 r :
  reaches (pop G (mkFr q ns :: mkFr q2 ns2 :: r)) (POk (mkFr q2 (ns2 ++ [close tree N N mk_node (rule_of G) q ns]) :: r)).
Proof.
  rewrite pop_cons by discriminate. apply (reaches_bind _ (fun nd => POk (add_top nd (mkFr q2 ns2 :: r))) (close tree N N mk_node (rule_of G) q ns)); [|left; reflexivity].
  unfold frame_node, close. cbn [f_dfa f_nodes]. destruct ns as [|x [|y l]]; [apply convert_reaches|left; reflexivity|apply convert_reaches].
Qed.

Lemma plansI_trans q a : plansI TR q a = None <-> trans TR q a = None.
Proof. unfold plansI. destruct (trans TR q a); split; intros H; try discriminate; reflexivity. Qed.

Definition leaf_of (t : Token) : tree := convert_leaf G t.

Lemma fold_push ch x : forall base : list aframe, st_of_a (push tree N ch x base) = add_top x (pushes ch (st_of_a base)).
Proof. induction ch as [|s ch IH]; intros base; [destruct base as [|[q ns] b]; reflexivity|]. apply (IH ((s, []) :: base)). Qed.

(* pops then shift = add_token (strict or recovering: no error branch is reached) *)
Lemma step_refines : forall a st st1, pops' a st st1 ->
  forall tok st2 fuel b om ic,
    token_label G tok = a -> shift' a (leaf_of tok) st1 = Some st2 ->
    (length st < fuel)%nat ->
    reaches (add_token G TR fuel b (mkP (st_of_a st) om ic) tok) (POk (mkP (st_of_a st2) om ic)).
Proof.
  intros a st st1 P. induction P as [st|st stm st1 P1 _ IH]; intros tok st2 fuel b om ic L SH F;
    (destruct fuel as [|f]; [lia|]).
  - destruct st as [|[q ns] rest]; [discriminate|]. cbn [map fr_of fst snd]. rewrite add_token_eq. cbn [fr_of fst snd f_dfa f_nodes].
    unfold shift, plansI in SH. rewrite L. destruct (trans TR q a) as [pl|]; [|discriminate].
    injection SH as <-. left. rewrite fold_push. reflexivity.
  - inversion P1 as [q ns q2 ns2 rest NP FQ]; subst. cbn [map fr_of fst snd]. rewrite add_token_eq. cbn [fr_of fst snd f_dfa f_nodes].
    apply plansI_trans in NP. rewrite NP, FQ.
    apply (reaches_bind _ (fun s' => add_token G TR f b (mkP s' om ic) tok) _ _ (pop_refines q ns q2 ns2 _)).
    apply (IH tok st2 f b om ic eq_refl SH). simpl in F |- *. lia.
Qed.

Definition word_of (toks : list Token) : list (label * tree) := map (fun t => (token_label G t, leaf_of t)) toks.

Lemma feed_refines : forall w st st', feed' w st st' ->
  forall toks, word_of toks = w -> forall om ic,
    reaches (Engine.feed G TR false (mkP (st_of_a st) om ic) toks) (POk (mkP (st_of_a st') om ic)).
Proof.
  intros w st st' FD. induction FD as [st|[a x] w st st1 st2 ST _ IH]; intros [|tok toks] E om ic; try discriminate.
  - left. reflexivity.
  - injection E as La Lx Lw. inversion ST as [a0 x0 s0 sA sB PA SH]; subst a0 x0 s0 sB. rewrite <- Lx in SH.
    rewrite feed_cons. cbn [retok]. apply (reaches_bind _ (fun p2 => Engine.feed G TR false p2 toks) (mkP (st_of_a st1) om ic)).
    + apply (step_refines _ _ _ PA); [exact La|exact SH|]. rewrite map_length. unfold aframe, LL1.frame. lia.
    + apply (IH toks Lw).
Qed.

(* finish: pop everything with any lookahead that has no plan, then convert the root *)
Lemma finish_refines : forall t st c, pops' t st c ->
  forall qf ns, c = [(qf, ns)] -> final G qf = true ->
  forall fuel, (length st < fuel)%nat ->
    reaches (finish G fuel (st_of_a st)) (convert_node G (rule_of G qf) ns).
Proof.
  intros t st c P. induction P as [st|st stm c P1 _ IH]; intros qf ns E FQ fuel F; (destruct fuel as [|f]; [simpl in F; lia|]).
  - subst st. cbn [finish map fr_of fst snd f_dfa f_nodes]. rewrite FQ. left. reflexivity.
  - inversion P1 as [q ns1 q2 ns2 rest NP FQ1]; subst. cbn [finish map fr_of fst snd f_dfa f_nodes]. rewrite FQ1. cbn [negb].
    apply (reaches_bind _ (finish G f) _ _ (pop_refines q ns1 q2 ns2 _)). apply (IH qf ns eq_refl FQ). simpl in F |- *. lia.
Qed.

(* C06 on the engine model: every sentence of a valid rule, given as a derivation over the rule automata, is accepted by
   the strict parser of Engine.v with the collapsed derivation as result - or a conversion failure, never a syntax error *)
Variable FWT : list (N * list label).
Definition derivation := dtree tree label N.

Theorem engine_complete_gen : complete_tables G TR FWT ->
  forall F kb t toks,
    wf tree N label N (arcT G) (arcN G) (startR G) (final G) (validR G) (DNode tree label N F kb) ->
    FW FWT F t = true ->
    word_of toks = yield tree label N (DNode tree label N F kb) ->
    parse G TR false F toks = convert_node G F (map (collapse tree label N mk_node) kb)
    \/ exists e, conv_err e /\ parse G TR false F toks = PErr e.
Proof.
  intros OK F kb t toks W HF HW.
  destruct (complete_tables_pass G TR FWT tree mk_node OK F kb t W HF) as (qf & Fq & Rq & (st' & FD & PP)).
  assert (VF: validR G F) by (apply wf_node in W as (VB & _); exact VB).
  destruct (assocN_found _ _ VF) as (q0 & A). unfold parse. rewrite A. destruct (start_of G _ _ A) as [_ <-].
  apply (reaches_bind _ (fun p => finish G (S (length (stack p))) (stack p)) _ _ (feed_refines _ _ _ FD toks HW [] 0%Z)).
  cbn [stack]. rewrite <- Rq. apply (finish_refines _ _ _ PP qf _ eq_refl Fq). rewrite map_length. unfold aframe, LL1.frame. lia.
Qed.

Theorem engine_complete : forall fuel, tables_ok G TR FWT fuel = true ->
  forall F kb t toks,
    wf tree N label N (arcT G) (arcN G) (startR G) (final G) (validR G) (DNode tree label N F kb) ->
    FW FWT F t = true ->
    word_of toks = yield tree label N (DNode tree label N F kb) ->
    parse G TR false F toks = convert_node G F (map (collapse tree label N mk_node) kb)
    \/ exists e, conv_err e /\ parse G TR false F toks = PErr e.
Proof. intros fuel OK. exact (engine_complete_gen (tables_ok_complete G TR FWT fuel OK)). Qed.
End Refine.
Print Assumptions engine_complete.
