From Coq Require Import List NArith ZArith Lia.
Import ListNotations.
Require Import Engine EngineStep LL1Engine EngineErr.
Open Scope N_scope.

(* C02, termination of the engine: the fuel the model hands to add_token / finish is always enough - the engine
   never reports PFuel - and the stack it works on is never empty (no "too much input" from an empty stack).
   One token costs at most two steps per stack frame: an optional missing-newline repair followed by a pop, or one
   stack removal. *)

Section Fuel.
Variable G : gram.
Variable TR : list (N * list (label * plan)).

Definition mu (s : list frame) : nat :=
  (2 * length s - match s with tos :: _ => if final G (f_dfa tos) then 1 else 0 | [] => 0 end)%nat.

Lemma mu_le s : (mu s <= 2 * length s)%nat.
Proof. unfold mu. lia. Qed.
Lemma mu_final tos rest : final G (f_dfa tos) = true -> mu (tos :: rest) = (2 * length rest + 1)%nat.
Proof. intros H. unfold mu. rewrite H. simpl length. lia. Qed.
Lemma mu_nonfinal tos rest : final G (f_dfa tos) = false -> mu (tos :: rest) = (2 * length rest + 2)%nat.
Proof. intros H. unfold mu. rewrite H. simpl length. lia. Qed.

Definition good {A} (r : pres A) : Prop := r <> PErr PFuel /\ r <> PErr TooMuchInput.
Lemma good_map {A B} (r : pres A) (f : A -> pres B) : good r -> (forall a, r = POk a -> good (f a)) ->
  good (match r with POk a => f a | PErr e => PErr e end).
Proof. intros [G1 G2] H. destruct r as [a|e]; [apply H; reflexivity|]. split; intros X; inversion X; subst; [apply G1|apply G2]; reflexivity. Qed.

Definition mild (e : perr) : Prop := e <> PFuel /\ e <> TooMuchInput.
Lemma mild_good {A} (e : perr) : mild e -> good (@PErr A e).
Proof. intros [M1 M2]. split; intros X; inversion X; contradiction. Qed.
Lemma conv_mild (e : perr) : conv_err e -> mild e.
Proof. intros [X|[X|X]]; subst; split; discriminate. Qed.

Definition fine (r : pres pstate) : Prop := match r with POk p => stack p <> [] | PErr e => mild e end.
Lemma fine_good r : fine r -> good r.
Proof. destruct r as [p|e]; [split; discriminate|apply mild_good]. Qed.
Lemma fine_bind r (f : pstate -> pres pstate) : fine r -> (forall p, stack p <> [] -> fine (f p)) ->
  fine (match r with POk p => f p | PErr e => PErr e end).
Proof. destruct r as [p|e]; intros F H; [apply H|]; exact F. Qed.

Lemma add_token_fine : forall fuel recover p t,
  (mu (stack p) < fuel)%nat -> stack p <> [] -> fine (add_token G TR fuel recover p t).
Proof.
  induction fuel as [|f IH]; intros recover [[|tos rest] om ic] t MU NE; [lia|lia|contradiction|]. rewrite add_token_eq. cbn [stack] in MU.
  destruct (trans TR (f_dfa tos) (token_label G t)) as [pl|]; [apply add_top_nonempty, planned_nonempty|].
  destruct (final G (f_dfa tos)) eqn:FQ.
  - rewrite (mu_final _ _ FQ) in MU. destruct (pop G (tos :: rest)) as [s'|e] eqn:P; [|exact (conv_mild _ (pop_conv_err _ _ _ P))].
    destruct (pop_inv _ _ _ P) as (tos0 & below & rest0 & nd & [= <- ->] & _ & ->).
    apply IH; cbn [stack]; [|discriminate]. pose proof (mu_le (put below nd :: rest0)). cbn [length] in *. lia.
  - rewrite (mu_nonfinal _ _ FQ) in MU. destruct (repair G TR tos t) as [[pl|]|e] eqn:RP.
    + (* the repaired state is final: the next step is a pop *)
      destruct (repair_some _ _ _ _ _ RP) as (_ & _ & FP & _). apply IH; cbn [stack]; [|discriminate].
      unfold goto. rewrite mu_final by exact FP. lia.
    + destruct recover; [|split; discriminate].
      destruct (cut_exists G (tos :: rest) ltac:(discriminate)) as (gone & below & r & C). rewrite (stack_removal_cut G _ _ _ _ C). destruct C as [E _].
      destruct (flat_map f_nodes (rev gone)) as [|n ns] eqn:AN; [apply fix_suite_nonempty; discriminate|].
      apply fine_bind; [|intros [[|top r2] om2 ic2] NE2; [contradiction|apply fix_suite_nonempty; discriminate]].
      apply IH; cbn [stack]; [|discriminate].
      (* an error node means at least one frame was removed *)
      destruct gone as [|g gone]; [discriminate|]. apply (f_equal (@length frame)) in E. rewrite app_length in E.
      pose proof (mu_le (put below (Node KErrorNode (n :: ns)) :: r)). cbn [length] in *. lia.
    + rewrite (repair_err _ _ _ _ _ RP). split; discriminate.
Qed.

Lemma feed_fine : forall toks recover p, stack p <> [] -> fine (feed G TR recover p toks).
Proof.
  induction toks as [|t toks IH]; intros recover [s om ic] NE; [exact NE|]. rewrite feed_cons. cbn [stack] in NE.
  destruct (retok recover om ic t) as [ic1|]; [|apply IH; exact NE].
  apply fine_bind; [|intros p2; apply IH].
  (* mu s <= 2 * length s: fuel 2 * length s + 1 would do, feed hands over one more *)
  apply add_token_fine; [unfold mu; cbn [stack]; lia|exact NE].
Qed.

Lemma finish_good : forall fuel s, (length s < fuel)%nat -> good (finish G fuel s).
Proof.
  induction fuel as [|f IH]; intros s L; [lia|]. cbn [finish].
  destruct s as [|tos rest]; [split; discriminate|]. destruct (negb (final G (f_dfa tos))); [split; discriminate|].
  destruct rest as [|below rest].
  - destruct (convert_node G (rule_of G (f_dfa tos)) (f_nodes tos)) as [nd|e] eqn:CV; [split; discriminate|].
    eapply mild_good, conv_mild, convert_node_err. exact CV.
  - destruct (pop G (tos :: below :: rest)) as [s'|e] eqn:P; [|exact (mild_good _ (conv_mild _ (pop_conv_err _ _ _ P)))].
    destruct (pop_inv _ _ _ P) as (? & ? & ? & ? & E & _ & ->). inversion E; subst.
    apply IH. cbn [length] in *. lia.
Qed.

Theorem parse_fuel_suffices : forall recover start toks,
  parse G TR recover start toks <> PErr PFuel /\ parse G TR recover start toks <> PErr TooMuchInput.
Proof.
  intros recover start toks. unfold parse. destruct (assocN start (g_start G)) as [q0|]; [|split; discriminate].
  pose proof (feed_fine toks recover (mkP [mkFr q0 []] [] 0%Z) ltac:(discriminate)) as F.
  apply good_map; [exact (fine_good _ F)|]. intros p _. apply finish_good. lia.
Qed.
End Fuel.
Print Assumptions parse_fuel_suffices.
