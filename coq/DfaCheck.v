From Coq Require Import List NArith Bool.
Import ListNotations.
Require Import Deriv.
Open Scope N_scope.

(* C08.  check_rule compares a grammar rule, as a regular expression, with the automaton that parso's generator
   (pgen2/generator.py) built for it, by exploring the pairs (derivative, state) reachable from (rule, start);
   check_rule_sound: when it says true, the two accept the same words.  gen/Rules_<v>.v holds the rules, the automata
   and the obligation dfas_faithful_<v>.
   A rule automaton as dumped from parso: states 0..n-1, state 0 is the start. *)
Record dfa := { arcs : list (N * N * N);      (* (from, label, to) *)
                finals : list N }.

Definition step (d:dfa) (q:N) (a:N) : option N :=
  match find (fun '(p,l,_) => (p =? q) && (l =? a)) (arcs d) with
  | Some (_,_,t) => Some t | None => None end.
Definition ostep (d:dfa) (q:option N) (a:N) : option N :=
  match q with Some q => step d q a | None => None end.
Definition is_final (d:dfa) (q:option N) : bool :=
  match q with Some q => existsb (N.eqb q) (finals d) | None => false end.

Fixpoint run (d:dfa) (q:option N) (w:list N) : bool :=
  match w with [] => is_final d q | a::w => run d (ostep d q a) w end.

Definition pair := (rx * option N)%type.
Definition pair_eqb (p1 p2:pair) : bool :=
  rx_eqb (fst p1) (fst p2) &&
  match snd p1, snd p2 with Some a, Some b => a =? b | None, None => true | _, _ => false end.
Lemma pair_eqb_eq p1 p2 : pair_eqb p1 p2 = true <-> p1 = p2.
Proof.
  destruct p1 as [r1 q1], p2 as [r2 q2]; unfold pair_eqb; simpl. rewrite andb_true_iff, rx_eqb_eq.
  split.
  - intros [-> H]. destruct q1, q2; try discriminate; [apply N.eqb_eq in H; subst|]; reflexivity.
  - intros H; inversion H; subst. split; [reflexivity|]. destruct q2; [apply N.eqb_refl|reflexivity].
Qed.
Definition mem (p:pair) (l:list pair) : bool := existsb (pair_eqb p) l.
Lemma mem_In p l : mem p l = true <-> In p l.
Proof.
  unfold mem. rewrite existsb_exists. split.
  - intros (x & Hx & E). apply pair_eqb_eq in E; subst; exact Hx.
  - intros H; exists p; split; [exact H|apply pair_eqb_eq; reflexivity].
Qed.

Fixpoint syms (r:rx) : list N :=
  match r with
  | Empty | Eps => [] | Sym a => [a]
  | Cat r s | Alt r s => syms r ++ syms s
  | Star r => syms r end.

Definition succs (d:dfa) (sigma:list N) (p:pair) : list pair :=
  map (fun a => (deriv a (fst p), ostep d (snd p) a)) sigma.

Fixpoint explore (d:dfa) (sigma:list N) (fuel:nat) (todo seen:list pair) : option (list pair) :=
  match fuel with
  | O => None
  | S f =>
    match todo with
    | [] => Some seen
    | p :: rest =>
        if mem p seen then explore d sigma f rest seen
        else if Bool.eqb (nullable (fst p)) (is_final d (snd p))
             then explore d sigma f (succs d sigma p ++ rest) (p :: seen)
             else None
    end
  end.

Definition sigma_of (r:rx) (d:dfa) : list N := syms r ++ map (fun '(_,l,_) => l) (arcs d).

Definition check_rule (fuel:nat) (r:rx) (d:dfa) : bool :=
  match explore d (sigma_of r d) fuel [(r, Some 0)] [] with Some _ => true | None => false end.

(* Soundness: when explore succeeds, the pairs it has seen agree on acceptance and are closed under successors,
   hence a bisimulation between the derivatives of r and the states of d. *)

Definition consistent (d:dfa) (p:pair) : Prop := nullable (fst p) = is_final d (snd p).
Definition closed (d:dfa) (sigma:list N) (seen todo:list pair) : Prop :=
  forall p, In p seen -> consistent d p /\ incl (succs d sigma p) (seen ++ todo).

Lemma explore_inv d sigma fuel : forall todo seen res,
  closed d sigma seen todo ->
  explore d sigma fuel todo seen = Some res ->
  closed d sigma res [] /\ incl (seen ++ todo) res.
Proof.
  induction fuel as [|f IH]; intros todo seen res Hc H; simpl in H; [discriminate|].
  destruct todo as [|p rest].
  - inversion H; subst. rewrite app_nil_r. split; [exact Hc|apply incl_refl].
  - destruct (mem p seen) eqn:M.
    + apply mem_In in M.
      assert (I: incl (seen ++ p :: rest) (seen ++ rest)).
      { intros x. rewrite !in_app_iff. simpl. intros [Hx|[<-|Hx]]; auto. }
      destruct (IH rest seen res) as [R1 R2]; [|exact H|split; [exact R1|exact (incl_tran I R2)]].
      intros x Hx. destruct (Hc x Hx) as [C1 C2]. split; [exact C1|exact (incl_tran C2 I)].
    + destruct (Bool.eqb (nullable (fst p)) (is_final d (snd p))) eqn:E; [|discriminate].
      apply Bool.eqb_prop in E.
      assert (I: incl (seen ++ p :: rest) ((p :: seen) ++ succs d sigma p ++ rest)).
      { intros x. rewrite !in_app_iff. simpl. tauto. }
      destruct (IH (succs d sigma p ++ rest) (p :: seen) res) as [R1 R2]; [|exact H|split; [exact R1|exact (incl_tran I R2)]].
      intros x [<-|Hx].
      * split; [exact E|]. intros y Hy. rewrite !in_app_iff. auto.
      * destruct (Hc x Hx) as [C1 C2]. split; [exact C1|exact (incl_tran C2 I)].
Qed.

Lemma step_label d q a t : step d q a = Some t -> In a (map (fun '(_,l,_) => l) (arcs d)).
Proof.
  unfold step. destruct (find _ (arcs d)) as [[[p l] t']|] eqn:F; [|discriminate].
  intros _. apply find_some in F as [Hin Hb]. apply andb_true_iff in Hb as [_ Hl].
  apply N.eqb_eq in Hl; subst. apply in_map_iff. exists (p, a, t'); split; [reflexivity|exact Hin].
Qed.

Lemma run_dead d w : run d None w = false.
Proof. induction w; simpl; auto. Qed.

Lemma matches_empty_false w : matches Empty w -> False. Proof. apply matches_Empty. Qed.

(* Either side accepts only words over sigma_of r d: an expression its own symbols, an automaton the labels of its arcs. *)
Lemma matches_syms r w : matches r w -> incl w (syms r).
Proof.
  induction 1; simpl; try apply incl_app; auto using incl_nil_l, incl_refl, incl_appl, incl_appr.
Qed.
Lemma run_labels d w : forall q, run d q w = true -> incl w (map (fun '(_,l,_) => l) (arcs d)).
Proof.
  induction w as [|a w IH]; intros q H; [apply incl_nil_l|]. simpl in H.
  destruct (ostep d q a) as [t|] eqn:E; [|rewrite run_dead in H; discriminate].
  destruct q as [q|]; [|discriminate]. apply incl_cons; [exact (step_label _ _ _ _ E)|exact (IH _ H)].
Qed.

Theorem closed_bisim d sigma res :
  closed d sigma res [] ->
  forall w, incl w sigma -> forall r q, In (r, q) res -> (matches r w <-> run d q w = true).
Proof.
  intros Hc. induction w as [|a w IH]; intros Hw r q Hin; destruct (Hc _ Hin) as [C S].
  - rewrite <- nullable_ok. unfold consistent in C. simpl in *. rewrite C. reflexivity.
  - apply incl_cons_inv in Hw as [Ha Hw]. simpl. rewrite <- deriv_ok. apply (IH Hw).
    rewrite app_nil_r in S. apply S. apply (in_map (fun a => (deriv a r, ostep d q a))). exact Ha.
Qed.

Theorem check_rule_sound fuel r d :
  check_rule fuel r d = true -> forall w, matches r w <-> run d (Some 0) w = true.
Proof.
  unfold check_rule. destruct (explore d (sigma_of r d) fuel [(r, Some 0)] []) as [res|] eqn:E; [|discriminate].
  intros _ w.
  destruct (explore_inv _ _ _ _ _ _ (fun p (F : In p []) => match F with end) E) as [Hc Hin].
  pose proof (fun Hw => closed_bisim _ _ _ Hc w Hw r (Some 0) (Hin _ (or_introl eq_refl))) as B.
  split; intros H; apply B; try exact H; unfold sigma_of.
  - apply incl_appl. apply matches_syms. exact H.
  - apply incl_appr. eapply run_labels. exact H.
Qed.
Print Assumptions check_rule_sound.

(* Consecutive grammar versions share most of their rules.  A table obligation over a list of rules may skip those
   that a list already checked contains (the per-version files use this against the version before). *)
Lemma rule_eq_dec : forall a b : rx * dfa, {a = b} + {a <> b}.
Proof. repeat decide equality. Defined.
Lemma forallb_known {A} (dec : forall a b : A, {a = b} + {a <> b}) (f : A -> bool) (known : list A) :
  forallb f known = true -> forall l, forallb (fun x => if in_dec dec x known then true else f x) l = true -> forallb f l = true.
Proof.
  intros K l H. rewrite forallb_forall in *. intros x I. specialize (H x I). cbv beta in H.
  destruct (in_dec dec x known) as [J|_]; [exact (K x J)|exact H].
Qed.
