From Coq Require Import List NArith ZArith Bool.
Import ListNotations.
Require Import Tok Engine EngineStep.
Open Scope N_scope.

(* C04, locality of the engine in what the root frame already holds.

   The incremental parser keeps the nodes of the statements in front of a change and runs a NEW parser over the tokens
   of the rest; its result is spliced in after the kept nodes.  That is right only if the nodes the root frame already
   holds do not influence how the following tokens are parsed.  Here: for every table, both modes and every token list,
   running the engine from a stack whose bottom frame additionally holds `ns` in front of its own nodes gives exactly
   the result of the run without them, with `ns` in front of the children of the root - provided the first token is not
   a DEDENT arriving at a root frame that is still empty (the one place where the engine looks at the last node of the
   frame it is in: the missing-newline test for a DEDENT). *)

Fixpoint shiftb (ns : list tree) (s : list frame) : list frame :=
  match s with
  | [] => []
  | b :: r => match r with
              | [] => [mkFr (f_dfa b) (ns ++ f_nodes b)]
              | _ => b :: shiftb ns r
              end
  end.
Lemma shiftb_one ns b : shiftb ns [b] = [mkFr (f_dfa b) (ns ++ f_nodes b)].
Proof. reflexivity. Qed.
Lemma shiftb_cons2 ns f g r : shiftb ns (f :: g :: r) = f :: shiftb ns (g :: r).
Proof. reflexivity. Qed.
Lemma shiftb_length ns s : length (shiftb ns s) = length s.
Proof. induction s as [|f [|g r] IH]; [reflexivity|reflexivity|]. rewrite shiftb_cons2. cbn [length] in *. rewrite IH. reflexivity. Qed.
Lemma shiftb_nonempty ns g r : shiftb ns (g :: r) <> [].
Proof. destruct r; cbn; discriminate. Qed.
Definition ready (s : list frame) (t : Token) : Prop := full s \/ ty t <> DEDENT.

Definition lift (ns : list tree) (p : pstate) : pstate := mkP (shiftb ns (stack p)) (omit p) (icount p).

Section Restart.
Variable G : gram.
Variable TR : list (N * list (label * plan)).
Variable ns : list tree.

Lemma shiftb_top tos rest : exists tos' rest', shiftb ns (tos :: rest) = tos' :: rest' /\ f_dfa tos' = f_dfa tos /\
  (forall q, goto q tos' :: rest' = shiftb ns (goto q tos :: rest)) /\
  (full (tos :: rest) -> last_leaf_of tos' = last_leaf_of tos).
Proof.
  destruct rest as [|g r]; eexists _, _; (split; [reflexivity|]); repeat split.
  cbn [full]. unfold last_leaf_of. cbn [f_nodes].
  destruct (f_nodes tos) as [|a l] using rev_ind; [intros []; reflexivity|]. rewrite app_assoc, !rev_app_distr. reflexivity.
Qed.

Lemma add_top_shiftb x s : add_top x (shiftb ns s) = shiftb ns (add_top x s).
Proof.
  destruct s as [|top [|g r]]; [reflexivity| |reflexivity].
  cbn [add_top]. rewrite !shiftb_one. cbn [add_top put f_dfa f_nodes]. rewrite app_assoc. reflexivity.
Qed.

Lemma pushes_shiftb ch : forall base, base <> [] -> pushes ch (shiftb ns base) = shiftb ns (pushes ch base).
Proof.
  induction ch as [|q ch IH]; intros [|g r] NE; [reflexivity|reflexivity|contradiction|].
  cbn [pushes fold_left]. rewrite <- shiftb_cons2. apply (IH (mkFr q [] :: g :: r)). discriminate.
Qed.

Lemma fix_suite_shiftb s : fix_suite G (shiftb ns s) = shiftb ns (fix_suite G s).
Proof.
  destruct s as [|top r]; [reflexivity|]. destruct (shiftb_top top r) as (t' & r' & E & D & M & _).
  rewrite E. cbn [fix_suite]. rewrite D. destruct (_ =? _); [destruct (arc_nt _ _ _); [apply M|]|]; symmetry; exact E.
Qed.

Lemma pop_shiftb s :
  pop G (shiftb ns s) = match pop G s with POk s' => POk (shiftb ns s') | PErr e => PErr e end.
Proof.
  destruct s as [|tos [|below rest]]; [reflexivity|reflexivity|].
  rewrite shiftb_cons2, !pop_cons by (discriminate || apply shiftb_nonempty).
  destruct (frame_node G tos); [|reflexivity]. rewrite add_top_shiftb. reflexivity.
Qed.

Lemma repair_shiftb tos rest tos' t : ready (tos :: rest) t -> f_dfa tos' = f_dfa tos ->
  (full (tos :: rest) -> last_leaf_of tos' = last_leaf_of tos) -> repair G TR tos' t = repair G TR tos t.
Proof.
  intros RD D L. unfold repair, newline_plan. rewrite D. destruct (ty t) eqn:TY; try reflexivity.
  destruct RD as [S|NT]; [rewrite (L S); reflexivity|contradiction].
Qed.

Lemma current_suite_shiftb : forall s, current_suite G (shiftb ns s) = current_suite G s.
Proof.
  induction s as [|f [|g r] IH]; [reflexivity|reflexivity|]. rewrite shiftb_cons2, (current_suite_cons G f g r), <- IH.
  destruct (shiftb_top g r) as (x & y & E & _). rewrite E. apply current_suite_cons.
Qed.

Lemma shiftb_app : forall a g r, shiftb ns (a ++ g :: r) = a ++ shiftb ns (g :: r).
Proof.
  induction a as [|x a IH]; intros g r; [reflexivity|]. cbn [app]. specialize (IH g r).
  destruct (a ++ g :: r) as [|y l] eqn:X; [destruct a; discriminate X|]. rewrite shiftb_cons2, IH. reflexivity.
Qed.

Lemma cut_shiftb s gone below r x : cut_at G s gone below r ->
  exists b' r', cut_at G (shiftb ns s) gone b' r' /\ put b' x :: r' = shiftb ns (put below x :: r).
Proof.
  intros [-> L]. destruct (shiftb_top below r) as (b' & r' & E & _). exists b', r'. split.
  - split; [rewrite shiftb_app, E; reflexivity|rewrite current_suite_shiftb; exact L].
  - change (add_top x (b' :: r') = shiftb ns (add_top x (below :: r))). rewrite <- E. apply add_top_shiftb.
Qed.

Lemma added_shiftb t m f p p' : added G TR t m f p p' -> ready (stack p) t -> added G TR t m f (lift ns p) (lift ns p').
Proof.
  unfold lift.
  induction 1 as [f tos rest om ic pl T|m f tos rest om ic s' p' T F P R IH|m f tos rest om ic pl p' T F P R IH
                 |m f tos rest om ic gone below r n nr s2 om2 ic2 (T & F & P) C AN R IH|f tos rest om ic gone below r (T & F & P) C AN];
    intros RD; cbn [stack omit icount] in *;
    destruct (shiftb_top tos rest) as (tos' & rest' & E & D & M & L); pose proof (repair_shiftb _ _ _ _ RD D L) as RP;
    rewrite E; rewrite <- D in T; try rewrite <- D in F; try rewrite <- RP in P.
  - unfold planned. rewrite <- add_top_shiftb, <- pushes_shiftb, <- M by discriminate.
    apply added_shift. exact T.
  - destruct (pop_inv G _ _ P) as (? & below & r0 & nd & _ & _ & ->).
    eapply added_pop; [exact T|exact F|rewrite <- E, pop_shiftb, P; reflexivity|].
    apply IH. left. apply (full_add_top nd (below :: r0)). discriminate.
  - rewrite <- M in IH. eapply added_newline; [exact T|exact F|exact P|]. apply IH. exact RD.
  - destruct (cut_shiftb _ _ _ _ (Node KErrorNode (n :: nr)) C) as (b' & r' & C' & EP). rewrite E in C'.
    rewrite <- fix_suite_shiftb. rewrite <- EP in IH.
    eapply added_err_node; [repeat split; eassumption|exact C'|exact AN|]. apply IH. left. apply (full_add_top _ (below :: r)). discriminate.
  - destruct (cut_shiftb _ _ _ _ (err_leaf t) C) as (b' & r' & C' & EP). rewrite E in C'.
    rewrite <- fix_suite_shiftb, <- EP. eapply added_err_leaf; [repeat split; assumption|exact C'|exact AN].
Qed.

Lemma add_token_shiftb f recover p t p' : add_token G TR f recover p t = POk p' -> ready (stack p) t ->
  add_token G TR f recover (lift ns p) t = POk (lift ns p').
Proof.
  intros A RD. apply add_token_added in A as (m & R & M). apply add_token_added. exists m.
  split; [exact (added_shiftb _ _ _ _ _ R RD)|exact M].
Qed.

Lemma feed_shiftb : forall toks recover s om ic p',
  (full s \/ match toks with t :: _ => ty t <> DEDENT | [] => True end) ->
  feed G TR recover (mkP s om ic) toks = POk p' -> feed G TR recover (mkP (shiftb ns s) om ic) toks = POk (lift ns p').
Proof.
  induction toks as [|t toks IH]; intros recover s om ic p' PRE; [intros [= <-]; reflexivity|].
  rewrite !feed_cons, shiftb_length. destruct (retok recover om ic t) as [ic1|] eqn:RT.
  - destruct (add_token G TR _ recover (mkP s om ic1) t) as [[s2 om2 ic2]|] eqn:A; [|discriminate].
    pose proof (add_token_full _ _ _ _ _ _ _ A) as S. apply add_token_shiftb in A; [|exact PRE]. unfold lift in A. cbn [stack omit icount] in *.
    rewrite A. apply IH. left. exact S.
  - apply IH. left. destruct PRE as [S|NT]; [exact S|]. destruct (NT (retok_none _ _ _ _ RT)).
Qed.

(* the root node: nothing but the rule name and the children, when the root rule has no special conversion *)
Definition plain_rule (r : N) : bool :=
  negb ((r =? r_suite G) || (r =? r_funcdef G) || (r =? r_lambdef G) || (r =? r_lambdef_nocond G)).
Definition prepend_root (t : tree) : tree := match t with Node k cs => Node k (ns ++ cs) | l => l end.

Lemma convert_plain r cs : plain_rule r = true -> convert_node G r cs = POk (Node (KRule r) cs).
Proof.
  unfold plain_rule, convert_node. intros P. apply negb_true_iff in P. apply orb_false_iff in P as [P L2]. apply orb_false_iff in P as [P L1].
  apply orb_false_iff in P as [S F]. rewrite S, F, L1, L2. reflexivity.
Qed.

Lemma last_add_top x s d : f_dfa (last (add_top x s) d) = f_dfa (last s d).
Proof. destruct s as [|top [|g r]]; reflexivity. Qed.

Lemma finish_shiftb : forall fuel s, plain_rule (rule_of G (f_dfa (last s (mkFr 0 [])))) = true ->
  finish G fuel (shiftb ns s) = match finish G fuel s with POk t => POk (prepend_root t) | PErr e => PErr e end.
Proof.
  induction fuel as [|f IH]; intros s PL; [reflexivity|]. destruct s as [|tos [|below r]]; [reflexivity| |].
  - rewrite shiftb_one. cbn [finish f_dfa f_nodes]. destruct (negb _); [reflexivity|].
    cbn [last] in PL. rewrite !(convert_plain _ _ PL). reflexivity.
  - rewrite shiftb_cons2. pose proof (shiftb_nonempty ns below r) as NB.
    destruct (shiftb ns (below :: r)) as [|x y] eqn:SB; [contradiction|]. cbn [finish]. destruct (negb _); [reflexivity|].
    rewrite <- SB, <- shiftb_cons2, pop_shiftb. destruct (pop G _) as [s'|] eqn:P; [|reflexivity].
    destruct (pop_inv G _ _ P) as (? & below0 & r0 & nd & [= <- <- <-] & _ & ->).
    apply IH. rewrite (last_add_top nd (below :: r)). exact PL.
Qed.

Theorem engine_restart : forall recover q toks t,
  match toks with u :: _ => ty u <> DEDENT | [] => True end ->
  forall p, feed G TR recover (mkP [mkFr q []] [] 0%Z) toks = POk p ->
  plain_rule (rule_of G (f_dfa (last (stack p) (mkFr 0 [])))) = true ->
  finish G (S (length (stack p))) (stack p) = POk t ->
  exists p', feed G TR recover (mkP [mkFr q ns] [] 0%Z) toks = POk p' /\ stack p' = shiftb ns (stack p) /\
             finish G (S (length (stack p'))) (stack p') = POk (prepend_root t).
Proof.
  intros recover q toks t FIRST p F PL FIN.
  apply feed_shiftb in F; [|right; exact FIRST]. rewrite shiftb_one in F. cbn [f_dfa f_nodes] in F. rewrite app_nil_r in F.
  exists (lift ns p). split; [exact F|]. split; [reflexivity|]. cbn [lift stack]. rewrite shiftb_length.
  rewrite (finish_shiftb _ _ PL), FIN. reflexivity.
Qed.
End Restart.
Print Assumptions engine_restart.
