From Coq Require Import List NArith Bool.
Import ListNotations.
Require Import Tok Engine EngineStep.
Open Scope N_scope.

(* C02, shape of the result: every interior node of the tree the engine returns has at least one child.
   For all tables, both modes, every start rule and every token list that contains a token other than a DEDENT
   (the recovery tokenizer may swallow a DEDENT, which then fills no frame; a list of real tokens ends with ENDMARKER). *)

Fixpoint ne (t : tree) : bool :=
  match t with
  | Leaf _ _ _ _ _ => true
  | Node _ cs => match cs with [] => false | _ => true end &&
                 (fix all (l : list tree) : bool := match l with [] => true | c :: r => ne c && all r end) cs
  end.
Definition nes (l : list tree) : bool := forallb ne l.
Lemma ne_node k cs : ne (Node k cs) = match cs with [] => false | _ => true end && nes cs.
Proof. reflexivity. Qed.
Lemma nes_app a b : nes (a ++ b) = nes a && nes b.
Proof. apply forallb_app. Qed.
Lemma nes_one x : nes [x] = ne x.
Proof. unfold nes. cbn [forallb]. apply andb_true_r. Qed.
Lemma nes_cons x l : nes (x :: l) = ne x && nes l.
Proof. reflexivity. Qed.
Lemma ne_node_cons k c cs : nes (c :: cs) = true -> ne (Node k (c :: cs)) = true.
Proof. intros H. rewrite ne_node. exact H. Qed.

Section Shape.
Variable G : gram.
Variable TR : list (N * list (label * plan)).

Lemma ne_children k cs : ne (Node k cs) = true -> cs <> [] /\ nes cs = true.
Proof. rewrite ne_node. intros H. apply andb_true_iff in H as [H1 H2]. split; [intros ->; discriminate|exact H2]. Qed.

Lemma params_ne l l' : params l l' -> nes l = true -> nes l' = true /\ (l' = [] -> l = []).
Proof.
  induction 1 as [l|a a' b b' _ IHa _ IHb|pc NE|r cs cs' _ IH]; intros N.
  - split; [exact N|intros E; exact E].
  - rewrite nes_app in N. apply andb_true_iff in N as [Na Nb]. destruct (IHa Na) as [A1 A2]. destruct (IHb Nb) as [B1 B2].
    split; [rewrite nes_app, A1, B1; reflexivity|]. intros E. apply app_eq_nil in E as [Ea Eb]. rewrite (A2 Ea), (B2 Eb). reflexivity.
  - split; [|discriminate]. destruct pc; [contradiction|]. rewrite nes_one. apply ne_node_cons. exact N.
  - rewrite nes_one in N. destruct (ne_children _ _ N) as [NE N']. destruct (IH N') as [A1 A2].
    split; [exact A1|]. intros E. contradiction (NE (A2 E)).
Qed.

Lemma converted_ne r ns t : converted G r ns t -> nes ns = true -> ns <> [] -> ne t = true.
Proof.
  intros [|c0 c1 mid last -> _ _|ns' [a pcs pcs' b P]|kw rest rest' _ -> P] N NN.
  - destruct ns; [contradiction|]. apply ne_node_cons. exact N.
  - apply ne_node_cons. rewrite !nes_cons, nes_app in N. apply andb_true_iff in N as [N0 N]. apply andb_true_iff in N as [_ N].
    apply andb_true_iff in N as [N _]. rewrite nes_cons, N0. exact N.
  - rewrite nes_app, nes_cons in N. apply andb_true_iff in N as [Na N]. apply andb_true_iff in N as [Np Nb].
    destruct (ne_children _ _ Np) as [NE Np']. destruct (params_ne _ _ P Np') as [A1 A2].
    assert (X: nes (a ++ Node (KRule (r_parameters G)) pcs' :: b) = true).
    { rewrite nes_app, nes_cons, Na, Nb, ne_node, A1. destruct pcs'; [contradiction (NE (A2 eq_refl))|reflexivity]. }
    destruct a; apply ne_node_cons; exact X.
  - rewrite nes_cons in N. apply andb_true_iff in N as [Nk Nr]. apply ne_node_cons. rewrite nes_cons, Nk. apply (params_ne _ _ P Nr).
Qed.

Definition frame_ne (fr : frame) : bool := nes (f_nodes fr).
Definition stack_ne (s : list frame) : bool := forallb frame_ne s.
Definition top_full (s : list frame) : Prop := match s with fr :: _ => f_nodes fr <> [] | [] => True end.

Lemma put_ne fr x s : stack_ne (fr :: s) = true -> ne x = true -> stack_ne (put fr x :: s) = true.
Proof.
  cbn [stack_ne forallb]. unfold frame_ne, put. cbn [f_nodes]. intros N X. apply andb_true_iff in N as [N1 N2].
  rewrite nes_app, N1, nes_one, X. exact N2.
Qed.
Lemma stack_ne_push ch : forall base, stack_ne (pushes ch base) = stack_ne base.
Proof. apply pushes_keeps. reflexivity. Qed.

Lemma nodes_ne l : stack_ne l = true -> nes (flat_map f_nodes l) = true.
Proof.
  induction l as [|fr r IH]; [reflexivity|]. cbn [stack_ne forallb flat_map]. intros H. apply andb_true_iff in H as [H1 H2].
  rewrite nes_app, (IH H2). unfold frame_ne in H1. rewrite H1. reflexivity.
Qed.

Lemma pop_ne s s' : pop G s = POk s' -> stack_ne s = true -> full s -> stack_ne s' = true.
Proof.
  intros H N TF. destruct (pop_inv _ _ _ H) as (tos & below & rest & nd & -> & C & ->).
  cbn [stack_ne forallb full] in N, TF. apply andb_true_iff in N as [N1 N2]. unfold frame_ne in N1.
  apply put_ne; [exact N2|]. apply frame_node_spec in C as [E|C]; [rewrite E, nes_one in N1; exact N1|exact (converted_ne _ _ _ C N1 TF)].
Qed.

Lemma fix_suite_ne s : stack_ne (fix_suite G s) = stack_ne s.
Proof. destruct (fix_suite_fixed G s); reflexivity. Qed.

Lemma current_suite_top_full : forall s, top_full s -> (1 < length s)%nat -> current_suite G s <> O ->
  forall s1 b, stack_removal s (current_suite G s) = (s1, b) -> b = true.
Proof.
  intros s TF _ K s1 b H. destruct s as [|tos rest]; [contradiction K; reflexivity|].
  destruct (cut_exists G (tos :: rest) ltac:(discriminate)) as (gone & below & r & C).
  rewrite (stack_removal_cut G _ _ _ _ C) in H. destruct C as [E L].
  destruct gone as [|g gone]; [contradiction K; symmetry; exact L|]. inversion E; subst g.
  cbn [rev] in H. rewrite flat_map_app in H. cbn [flat_map] in H. rewrite app_nil_r in H.
  destruct (flat_map f_nodes (rev gone) ++ f_nodes tos) eqn:AN; [apply app_eq_nil in AN as [_ AN]; contradiction|].
  inversion H. reflexivity.
Qed.

Lemma added_ne t m f p p' : added G TR t m f p p' -> stack_ne (stack p) = true -> full (stack p) \/ length (stack p) = 1%nat ->
  stack_ne (stack p') = true.
Proof.
  induction 1 as [f tos rest om ic pl _|m f tos rest om ic s' p' _ _ P _ IH|m f tos rest om ic pl p' _ _ _ _ IH
                 |m f tos rest om ic gone below r n ns s2 om2 ic2 _ [E _] AN _ IH|f tos rest om ic gone below r _ [E _] AN];
    cbn [stack] in *; intros N TF.
  - destruct (add_top_planned (convert_leaf G t) pl tos rest) as (top & r & X & ->).
    apply put_ne; [|reflexivity]. rewrite <- X. unfold planned. rewrite stack_ne_push. exact N.
  - assert (TF': full (tos :: rest)).
    { destruct TF as [TF|TF]; [exact TF|]. destruct (pop_inv _ _ _ P) as (? & ? & ? & ? & X & _). rewrite X in TF. discriminate. }
    apply IH; [exact (pop_ne _ _ P N TF')|left; exact (pop_full _ _ _ P)].
  - apply IH; [exact N|exact TF].
  - rewrite fix_suite_ne. rewrite E in N. unfold stack_ne in N. rewrite forallb_app in N. apply andb_true_iff in N as [Ng Nb].
    apply IH; [|left; apply (full_add_top _ (below :: r)); discriminate]. apply put_ne; [exact Nb|].
    apply ne_node_cons. rewrite <- AN. apply nodes_ne. unfold stack_ne. rewrite forallb_rev. exact Ng.
  - rewrite fix_suite_ne. rewrite E in N. unfold stack_ne in N. rewrite forallb_app in N. apply andb_true_iff in N as [_ Nb].
    apply put_ne; [exact Nb|reflexivity].
Qed.

(* once the top frame is full it stays full, and every token that is not a swallowed DEDENT fills it *)
Theorem parse_nonempty_nodes : forall recover start toks t,
  parse G TR recover start toks = POk t -> (exists u, In u toks /\ ty u <> DEDENT) -> ne t = true.
Proof.
  intros recover start toks t H EX.
  destruct (parse_inv G TR recover (fun rest s => stack_ne s = true /\
              (full s \/ length s = 1%nat /\ exists u, In u rest /\ ty u <> DEDENT))) with (4 := H)
    as (root & (N & [F|(_ & u & [] & _)]) & _ & CV).
  - intros u rest m f p p' _ R (N & TF). split; [|left; exact (added_full _ _ _ _ _ _ _ R)].
    apply (added_ne _ _ _ _ _ R N). destruct TF as [F|[L _]]; auto.
  - intros u rest s TD (N & [F|(L & v & [E|I] & NV)]); [auto|subst v; contradiction|]. split; [exact N|]. right. split; [exact L|]. exists v. auto.
  - intros tos rest s' _ P (N & [F|(_ & u & [] & _)]). split; [exact (pop_ne _ _ P N F)|left; exact (pop_full _ _ _ P)].
  - intros q0 _. split; [reflexivity|right; split; [reflexivity|exact EX]].
  - cbn [stack_ne forallb] in N. rewrite andb_true_r in N. exact (converted_ne _ _ _ (convert_node_spec _ _ _ _ CV) N F).
Qed.
End Shape.
Print Assumptions parse_nonempty_nodes.
