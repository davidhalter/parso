(* C01 - lossless round trip: the component statements, then the round trip end to end on the pipeline model. *)
From Coq Require Import List NArith.
Import ListNotations.
Require Import Tok Engine Lines Tree.
Open Scope N_scope.

(* the lines handed to the tokenizer concatenate to the input *)
Theorem C01_lines_concat : forall s, concat (Lines.split_keep s) = s.
Proof. exact Lines.split_keep_concat. Qed.
Print Assumptions C01_lines_concat.

(* the code of a tree is the in-order concatenation prefix ++ value of its leaves *)
Theorem C01_code_is_leaves : forall t, get_code t = concat (map leaf_text (leaves t)).
Proof. exact get_code_leaves. Qed.
Print Assumptions C01_code_is_leaves.

(* every subtree is a contiguous slice: text before ++ its own code ++ text after *)
Theorem C01_subtree_slice : forall path t n, subtree t path = Some n ->
  get_code t = before t path ++ get_code n ++ after t path.
Proof. exact subtree_slice. Qed.
Print Assumptions C01_subtree_slice.

Theorem C01_before_is_leaf_text : forall path t,
  before t path = concat (map leaf_text (leaves_before t path)).
Proof. exact before_is_leaf_text. Qed.
Print Assumptions C01_before_is_leaf_text.

Theorem C01_code_without_prefix : forall t, nonempty_nodes t ->
  get_code t = first_prefix t ++ get_code_noprefix t.
Proof. exact get_code_noprefix_spec. Qed.
Print Assumptions C01_code_without_prefix.


(* The round trip, end to end, on the pipeline model:
   parse_text = split_keep ; tokenize_lines ; parse  (Model.v, with the regenerated tables).
   For every version, mode, start rule and text: if the model returns a tree, the code of the tree is the text.
   (The model is the guarded one: see C09 for the tokenizer guards, Engine.v for PGuard; the tok / parse
   correspondence streams show model = implementation - never a guard - on all generated inputs.) *)
Require Import TokTiles ParseKeeps Grammars Model.
Require C09.

Lemma tcode_get_code : forall t, tcode t = get_code t.
Proof.
  induction t as [k v p l c|k cs IH] using tree_ind'; [reflexivity|].
  rewrite tcode_node, get_code_node. unfold tcodes, codes. induction IH as [|c r Hc _ IHr]; simpl; [reflexivity|]. rewrite Hc, IHr. reflexivity.
Qed.

Lemma tokens_zero_width v s toks : tokenize_text v s = Tok.Ok toks -> zero_width_blocks toks.
Proof.
  intros H t I TY. destruct (proj2 (proj2 (C09.C09_indent_dedent_balanced _ _ _ H)) t I TY) as [Z1 Z2].
  unfold emit1. rewrite Z1, Z2. reflexivity.
Qed.

Lemma parse_text_tree v m start s t : parse_text v m start s = OTree t ->
  exists toks G TR recover S0, tokenize_text v s = Tok.Ok toks /\ parse G TR recover S0 toks = POk t.
Proof.
  unfold parse_text, parse_tokens. intros H.
  destruct (tokenize_text v s) as [toks|]; [|discriminate].
  destruct (Engine.assocN v grams) as [[G TR]|]; [|discriminate].
  destruct (parse G TR _ _ toks) as [t'|] eqn:P; [|discriminate]. inversion H; subst t'.
  exists toks, G, TR. eexists. eexists. split; [reflexivity|exact P].
Qed.

Lemma parse_text_keeps v m start s t : parse_text v m start s = OTree t ->
  exists toks, tokenize_text v s = Tok.Ok toks /\ tcode t = emit toks /\ text_leaves t = text_tokens toks.
Proof.
  intros H. destruct (parse_text_tree _ _ _ _ _ H) as (toks & G & TR & rc & S0 & TK & P).
  pose proof (tokens_zero_width _ _ _ TK) as Z. exists toks. split; [exact TK|].
  split; [exact (parse_keeps_text G TR _ _ _ _ P Z)|exact (parse_keeps_leaves G TR _ _ _ _ P Z)].
Qed.

Theorem C01_roundtrip : forall v m start s t, parse_text v m start s = OTree t -> get_code t = s.
Proof.
  intros v m start s t H. destruct (parse_text_keeps _ _ _ _ _ H) as (toks & TK & E & _).
  rewrite <- tcode_get_code, E. apply C09.C09_tokens_tile_text with (v := v). exact TK.
Qed.
Print Assumptions C01_roundtrip.

(* every subtree of the parsed tree is a contiguous slice of the input *)
Theorem C01_roundtrip_subtrees : forall v m start s t path n, parse_text v m start s = OTree t -> subtree t path = Some n ->
  s = before t path ++ get_code n ++ after t path.
Proof.
  intros v m start s t path n H S. rewrite <- (C01_roundtrip _ _ _ _ _ H). apply subtree_slice. exact S.
Qed.

(* and the in-order leaves tile the input *)
Theorem C01_leaves_tile : forall v m start s t, parse_text v m start s = OTree t -> concat (map leaf_text (leaves t)) = s.
Proof. intros v m start s t H. rewrite <- get_code_leaves. eapply C01_roundtrip. exact H. Qed.

Example C01_roundtrip_example :
  match parse_text 310 Recover 0 [105;102;32;120;58;32;102;111;111;40;10;32;32;121;32;61;32;102;34;123;97;33;114;125;34;10] with
  | OTree t => get_code t = [105;102;32;120;58;32;102;111;111;40;10;32;32;121;32;61;32;102;34;123;97;33;114;125;34;10] /\ no_error t = false
  | _ => False end.
Proof. vm_compute. split; reflexivity. Qed.
