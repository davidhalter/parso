(* C19 - refactoring is a splice (Refactor.v); dump/eval and pickle are checked on the implementation *)
From Coq Require Import List.
Import ListNotations.
Require Import Engine Tree Refactor.
Theorem C19_refactor_empty : forall t m, (forall q, m q = None) -> refactor m t = get_code t.
Proof. exact refactor_empty. Qed.
Print Assumptions C19_refactor_empty.
Theorem C19_refactor_single : forall p t n s m,
  subtree t p = Some n -> m p = Some s -> (forall q, q <> p -> m q = None) ->
  refactor m t = before t p ++ s ++ after t p.
Proof. exact refactor_single. Qed.
Print Assumptions C19_refactor_single.
Theorem C19_refactor_mapped : forall m t s, m [] = Some s -> refactor m t = s.
Proof. exact refactor_mapped. Qed.
Theorem C19_refactor_compositional : forall m k cs, m [] = None -> refactor m (Node k cs) = refactor_children m 0 cs.
Proof. exact refactor_node. Qed.
Theorem C19_refactor_hides_descendants : forall m m' t, m [] = m' [] -> m [] <> None -> refactor m t = refactor m' t.
Proof. exact refactor_hides_descendants. Qed.

(* the general statement, for ANY map (any set of mapped nodes): the code and the refactored text are the concatenations of
   the old and the new texts of the same list of pieces, each piece being an unmapped leaf (copied verbatim) or a maximal
   mapped subtree (replaced as a whole, prefix included) *)
Theorem C19_refactor_is_splice : forall t m here,
  get_code t = olds (frontier m here t) /\ refactor m t = news (frontier m here t).
Proof. exact refactor_is_splice. Qed.
Print Assumptions C19_refactor_is_splice.
Theorem C19_pieces : forall t m here pc, In pc (frontier m here t) -> piece_ok m t here pc.
Proof. exact frontier_pieces. Qed.
Print Assumptions C19_pieces.
