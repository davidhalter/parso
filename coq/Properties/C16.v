(* C16 - cache transparency on the protocol model (Cache.v) *)
From Coq Require Import List.
Import ListNotations.
Require Import Cache.
Theorem C16_cache_transparent_fixed : forall mt, (forall a b, a < b -> mt a < mt b) ->
  forall h s, Inv mt s -> not_stale (run mt true true s h).
Proof. exact cache_transparent_fixed. Qed.
Print Assumptions C16_cache_transparent_fixed.
Theorem C16_initial_state_ok : Inv S init.
Proof. exact init_inv. Qed.
