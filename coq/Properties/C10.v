(* C10 - lexical layer.  Finite, exhaustive sweeps (the bound is part of each statement):
   the operator alternatives of pseudo_token accept exactly the operator set of the language
   reference among all strings over the operator alphabet up to length 3; and the pseudo_token matches that the
   tokenizer calls NUMBER are exactly the numbers of the language reference among all strings up to length 4 over an
   alphabet that has a letter of every class the number grammar distinguishes. *)
From Coq Require Import List NArith Bool.
Import ListNotations.
Require Import Regex RegexFacts Tok Tables.
Open Scope N_scope.

Definition full_match (r : re) (s : list N) : bool :=
  match rmatch (Cat r AtEndStr) s 0 with Some _ => true | None => false end.

(* token produced by pseudo_token at position 0 of s, if it spans the whole of s *)
Definition pseudo_whole (c : coll) (s : list N) : bool :=
  match rmatch (pseudo c) s 0 with
  | Some (e, cs) => match grp 2 cs with Some (a, b) => (a =? 0) && (b =? N.of_nat (length s)) && negb (b =? 0) | None => false end
  | None => false
  end.

Definition op_alphabet : list N := [33;37;38;40;41;42;43;44;45;46;47;58;59;60;61;62;64;91;93;94;96;123;124;125;126].
(* ! % & ( ) * + , - . / : ; < = > @ [ ] ^ ` { | } ~ *)
Fixpoint words (n : nat) : list (list N) :=
  match n with O => [[]] | S k => [] :: flat_map (fun w => map (fun c => c :: w) op_alphabet) (words k) end.
Fixpoint words_over (a : list N) (n : nat) : list (list N) :=
  match n with O => [[]] | S k => [] :: flat_map (fun w => map (fun c => c :: w) a) (words_over a k) end.

Definition str_of (l : list N) := l.
Definition ops_common : list (list N) :=
  [[43];[45];[42];[42;42];[47];[47;47];[37];[64];[60;60];[62;62];[38];[124];[94];[126];[60];[62];[60;61];[62;61];[61;61];[33;61];
   [40];[41];[91];[93];[123];[125];[44];[58];[46];[59];[61];[45;62];[43;61];[45;61];[42;61];[47;61];[47;47;61];[37;61];[64;61];
   [38;61];[124;61];[94;61];[62;62;61];[60;60;61];[42;42;61];[46;46;46];
   (* accepted by parso's tokenizer for error recovery / old syntax, rejected later by the parser: *)
   [33];[96];[96;61];[60;62]].
Definition walrus : list N := [58;61].

Definition in_list (w : list N) (l : list (list N)) : bool := existsb (str_eqb w) l.

(* <> is no alternative of the operator pattern (`[+\-*/%&@`|^!=<>]=?` gives < and then >): it is not expected as one token *)
Definition expected_ops (with_walrus : bool) (w : list N) : bool :=
  in_list w (filter (fun o => negb (str_eqb o [60;62])) ops_common) || (with_walrus && str_eqb w walrus).

Definition sweep (c : coll) (with_walrus : bool) : bool :=
  forallb (fun w => match w with [] => true | _ => Bool.eqb (pseudo_whole c w) (expected_ops with_walrus w) end) (words 3).

(* A sweep is dear.  It runs on pseudo_token pruned to the alphabet of its words (RegexFacts.prune: the alternatives
   that cannot start with a letter of the alphabet play no part), and once per class of entries of [colls] that the
   pruned pattern and the flag cannot tell apart: most versions share their token collection, and on the number
   alphabet all do. *)
Lemma forallb_classes {A K} (dec : forall a b : K, {a = b} + {a <> b}) (key : A -> K) (g : K -> bool) (f : A -> bool) l :
  (forall x, f x = g (key x)) -> forallb g (nodup dec (map key l)) = true -> forallb f l = true.
Proof. intros E H. rewrite forallb_forall in *. intros x I. rewrite E. apply H, nodup_In, in_map, I. Qed.
Lemma forallb_same {A} (f g : A -> bool) l : (forall x, In x l -> f x = g x) -> forallb f l = forallb g l.
Proof. intros E. induction l as [|x l IH]; [reflexivity|]. cbn [forallb]. rewrite (E x), IH; [reflexivity|intros y I; apply E; right; exact I|left; reflexivity]. Qed.
Lemma re_eq_dec : forall a b : re, {a = b} + {a <> b}.
Proof. repeat decide equality. Defined.
Lemma flag_re_eq_dec : forall a b : bool * re, {a = b} + {a <> b}.
Proof. decide equality; [apply re_eq_dec|apply bool_dec]. Defined.

Definition whole_match (r : re) (s : list N) : bool :=
  match rmatch r s 0 with
  | Some (e, cs) => match grp 2 cs with Some (a, b) => (a =? 0) && (b =? N.of_nat (length s)) && negb (b =? 0) | None => false end
  | None => false
  end.
Lemma pseudo_whole_pruned A c s : over A s -> pseudo_whole c s = whole_match (prune A (pseudo c)) s.
Proof. intros O. unfold pseudo_whole, whole_match, rmatch. rewrite (prune_ok A (pseudo c) 0 _ [] _ (fun i _ c0 => Some (i, c0)) O); [reflexivity|intros ? ? ? _; reflexivity]. Qed.
Lemma words_over_in a n : forall w, In w (words_over a n) -> over a w.
Proof.
  induction n as [|n IH]; intros w I; [destruct I as [<-|[]]; constructor|]. destruct I as [<-|I]; [constructor|].
  apply in_flat_map in I as (v & Iv & I). apply in_map_iff in I as (x & <- & Ix). constructor; [exact Ix|exact (IH v Iv)].
Qed.
Lemma words_are n : words n = words_over op_alphabet n.
Proof. induction n as [|n IH]; [reflexivity|]. cbn [words words_over]. rewrite IH. reflexivity. Qed.

(* [sweep] on a pattern, with the operator list it compares against filtered once, outside the loop over the words *)
Definition sweep_on (r : re) (with_walrus : bool) : bool :=
  let ops := filter (fun o => negb (str_eqb o [60;62])) ops_common in
  forallb (fun w => match w with
                    | [] => true
                    | _ => Bool.eqb (whole_match r w) (in_list w ops || (with_walrus && str_eqb w walrus)) end) (words 3).
Lemma sweep_pruned c b : sweep c b = sweep_on (prune op_alphabet (pseudo c)) b.
Proof.
  apply forallb_same. intros w I. rewrite words_are in I. destruct w; [reflexivity|].
  rewrite (pseudo_whole_pruned op_alphabet c _ (words_over_in _ _ _ I)). reflexivity.
Qed.

(* for every shipped token collection: over ALL strings of length <= 3 over the operator alphabet, pseudo_token
   yields a single whole-string token exactly for the operators of the language reference for that version
   (:= from 3.8 on) plus the three error-recovery extras ! ` `= that the grammar then rejects *)
Theorem C10_operator_language_len3 :
  forallb (fun '(v, c) => sweep c (38 <=? v)) colls = true.
Proof.
  apply (forallb_classes flag_re_eq_dec (fun vc => (38 <=? fst vc, prune op_alphabet (pseudo (snd vc)))) (fun k => sweep_on (snd k) (fst k)));
    [intros [v c]; apply sweep_pruned|vm_compute; reflexivity].
Qed.
Print Assumptions C10_operator_language_len3.

Example C10_sweep_nonvacuous : length (words 3) = 16276%nat /\ pseudo_whole coll_38 [58;61] = true /\ pseudo_whole coll_36 [58;61] = false.
Proof. vm_compute. repeat split. Qed.

(* numbers: the NUMBER token language equals the language reference (section 2.4.5-2.4.7) on ALL strings of length <= 4
   over a 16-letter alphabet that contains every character class the number grammar distinguishes *)
Definition cs (l : list (N * N)) : re := CSet false l.
Definition digit := cs [(48,57)].
Definition us_opt (d : re) : re := Cat d (Star (Cat (Opt (Chr 95)) d)).        (* d (["_"] d)* *)
Definition digitpart := us_opt digit.
Definition decinteger := Alt (Cat (cs [(49,57)]) (Star (Cat (Opt (Chr 95)) digit))) (Cat (Plus (Chr 48)) (Star (Cat (Opt (Chr 95)) (Chr 48)))).
Definition prefixed (letters : list (N * N)) (d : re) : re := Cat (Chr 48) (Cat (cs letters) (Plus (Cat (Opt (Chr 95)) d))).
Definition integer := Alt decinteger (Alt (prefixed [(98,98);(66,66)] (cs [(48,49)]))
                      (Alt (prefixed [(111,111);(79,79)] (cs [(48,55)])) (prefixed [(120,120);(88,88)] (cs [(48,57);(97,102);(65,70)])))).
Definition fraction := Cat (Chr 46) digitpart.
Definition pointfloat := Alt (Cat (Opt digitpart) fraction) (Cat digitpart (Chr 46)).
Definition exponent := Cat (cs [(101,101);(69,69)]) (Cat (Opt (cs [(43,43);(45,45)])) digitpart).
Definition exponentfloat := Cat (Alt pointfloat digitpart) exponent.
Definition floatnumber := Alt exponentfloat pointfloat.
Definition imagnumber := Cat (Alt floatnumber digitpart) (cs [(106,106);(74,74)]).
Definition number_ref := Alt imagnumber (Alt floatnumber integer).

Definition num_alphabet : list N := [48;49;55;57;95;46;101;69;106;120;98;111;97;102;43;45].

(* the tokenizer calls a pseudo_token match a NUMBER when it starts with a digit, or with a dot and is neither . nor ... *)
Definition is_number_token (c : coll) (w : list N) : bool :=
  pseudo_whole c w &&
  match w with
  | x :: _ => ((48 <=? x) && (x <=? 57)) || ((x =? 46) && negb (str_eqb w [46]) && negb (str_eqb w [46;46;46]))
  | [] => false
  end.

Definition number_sweep (c : coll) : bool :=
  forallb (fun w => Bool.eqb (is_number_token c w) (full_match number_ref w)) (words_over num_alphabet 4).

(* A word that does not begin with a digit or a dot is neither a NUMBER token nor in the reference language, whatever
   follows it (both tests fail on the first character): only the words that begin with one of the five such letters
   of the alphabet are swept. *)
Lemma words_over_S (f : list N -> bool) a n :
  f [] = true -> (forall x, In x a -> forall w, In w (words_over a n) -> f (x :: w) = true) -> forallb f (words_over a (S n)) = true.
Proof.
  intros E H. cbn [words_over forallb]. rewrite E. apply forallb_forall. intros v I.
  apply in_flat_map in I as (w & Iw & I). apply in_map_iff in I as (x & <- & Ix). exact (H x Ix w Iw).
Qed.

Definition number_starts : list N := [48;49;55;57;46].
Definition number_sweep_on (r : re) : bool :=
  forallb (fun x => forallb (fun w => Bool.eqb (whole_match r (x :: w) &&
                                                 (((48 <=? x) && (x <=? 57)) || ((x =? 46) && negb (str_eqb (x :: w) [46]) && negb (str_eqb (x :: w) [46;46;46]))))
                                                (full_match number_ref (x :: w))) (words_over num_alphabet 3))
          number_starts.
Lemma number_sweep_by_starts c : number_sweep_on (prune num_alphabet (pseudo c)) = true -> number_sweep c = true.
Proof.
  intros H. apply words_over_S; [unfold is_number_token; rewrite andb_false_r; reflexivity|]. intros x Ix w Iw.
  assert (HS: In x number_starts -> Bool.eqb (is_number_token c (x :: w)) (full_match number_ref (x :: w)) = true).
  { intros S. unfold number_sweep_on in H. rewrite forallb_forall in H. specialize (H x S). rewrite forallb_forall in H.
    unfold is_number_token. rewrite (pseudo_whole_pruned num_alphabet c (x :: w)); [exact (H w Iw)|].
    constructor; [exact Ix|exact (words_over_in _ _ _ Iw)]. }
  cbn in Ix. repeat destruct Ix as [<-|Ix]; try contradiction;
    first [apply HS; cbn; tauto|unfold is_number_token; rewrite (andb_comm (pseudo_whole c _)); reflexivity].
Qed.

Theorem C10_number_language_len4 : forallb (fun '(v, c) => number_sweep c) colls = true.
Proof.
  assert (K: forallb (fun vc => number_sweep_on (prune num_alphabet (pseudo (snd vc)))) colls = true)
    by (apply (forallb_classes re_eq_dec (fun vc => prune num_alphabet (pseudo (snd vc))) number_sweep_on); [reflexivity|vm_compute; reflexivity]).
  rewrite forallb_forall in *. intros [v c] I. exact (number_sweep_by_starts c (K _ I)).
Qed.
Print Assumptions C10_number_language_len4.
Example C10_number_sweep_nonvacuous :
  is_number_token coll_38 [48;57;106] = true /\ is_number_token coll_38 [48;95;49;106] = true /\ is_number_token coll_38 [48;57] = false
  /\ is_number_token coll_38 [49;95;48] = true /\ is_number_token coll_38 [49;101;45;49] = true.
Proof. vm_compute. repeat split. Qed.
