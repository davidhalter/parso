(* C04 - the part of the incremental parser's justification that is a theorem.

   DiffParser re-tokenizes a changed region with `tokenize_lines(lines[line_offset:], start_pos=(line_offset+1, 0),
   indents=...)` and moves copied nodes by a line offset (_update_positions) instead of
   re-tokenizing them.  That is right only if the tokenizer is invariant under a shift of the start line:

     C04_tok_shift: for every version, lines, indentation stack, start line sl >= 1, start column, first-token
     flag and every k, tokenizing at start line sl + k returns exactly the tokens of tokenizing at sl with k
     added to every token's line (type, string, column, prefix unchanged), and fails iff the unshifted run fails
     (same error).  Proved for ANY token collection and oracles (TokShift.tok_shift), by a simulation relation
     between the two runs' states (line number, pending string start and pending f-string text start shifted; the
     fields that are not read while no string is open - its start, end pattern and prefix, and the text start of an
     f-string frame without pending text - unconstrained; everything else equal).

   DiffParser also re-tokenizes only the lines from `parsed_until_line` on, with the indentation stack of the nodes
   it kept and is_first_token=False.  That is right only if the tokenizer can be restarted at a line boundary:

     C04_tok_resume: Model.run_resume_points lists, for every line i of the input, whether the tokenizer state after
     line i is clean (no open bracket, no string or f-string continued, at the start of a logical line, no pending
     backslash/comment prefix) and, if so, the indentation stack there.  For every such i the tokens of the whole
     input are t1 ++ rest, where the tokens of the first i+1 lines alone are t1 ++ DEDENTs ++ [ENDMARKER] (one
     DEDENT per open indentation) and rest are the tokens of the remaining lines tokenized on their own from line
     sl + i + 1 with that indentation stack and is_first_token=False; errors of the rest are the errors of the whole.
     Proved for ANY collection and oracles (TokResume.tok_resume_points) from the same simulation with k = 0.

   The new parser DiffParser runs over the tokens of the rest starts with an empty root frame, and its children are
   spliced in after the nodes that were kept.  That is right only if what the root frame already holds does not influence
   how the following tokens are parsed:

     C04_engine_restart: for every table, both modes and every token list that does not begin with a DEDENT, feeding
     the tokens to an engine whose root frame already holds the nodes ns ends in the same stack as feeding them to an
     engine with an empty root frame, with ns in front of the root frame's nodes (EngineRestart.shiftb) - every transition,
     push, pop and every error recovery step is the same - and, for a root rule without special conversion (file_input),
     the finished tree is the same tree with ns in front of the root's children.  (A DEDENT arriving at a root frame that
     is still empty is the one place where the engine reads the last node of the frame it is in.)

   What is NOT proved: that DiffParser picks copy boundaries that are clean in this sense and at which the engine is
   at a statement boundary, and the difflib + _NodesTree bookkeeping; those are decided by validation of edit
   histories against the pipeline model (harness/props/C04.py). *)
From Coq Require Import List NArith ZArith.
Import ListNotations.
Require Import Tok TokShift TokResume Engine EngineRestart Model.
Open Scope N_scope.

Theorem C04_tok_shift : forall v k lines inds sl sc first,
  1 <= sl ->
  run_tok v lines inds (sl + k) sc first =
  match run_tok v lines inds sl sc first with Tok.Ok toks => Tok.Ok (map (shT k) toks) | Tok.Err e => Tok.Err e end.
Proof.
  intros v k lines inds sl sc first H. unfold run_tok. destruct (coll_of v) as [c|]; [|reflexivity].
  apply tok_shift. exact H.
Qed.
Print Assumptions C04_tok_shift.

(* non-vacuity: a region with an indented block, a string continued over two lines and a pending f-string,
   tokenized as lines 1.. and as lines 41.. *)
Example C04_shift_example :
  let lines := [[105;102;32;97;58;10]; [32;32;120;32;61;32;39;39;39;97;10]; [98;39;39;39;10]; [32;32;121;32;61;32;102;34;123;120;125;34;10]] in
  match run_tok 312 lines [0] 1 0 true, run_tok 312 lines [0] 41 0 true with
  | Tok.Ok a, Tok.Ok b => (10 <=? N.of_nat (length a)) = true /\ b = map (shT 40) a /\ a <> b
  | _, _ => False end.
Proof. vm_compute. split; [reflexivity|split; [reflexivity|discriminate]]. Qed.

Theorem C04_tok_resume : forall v lines inds sl sc first i inds1,
  1 <= sl ->
  nth_error (run_resume_points v lines inds sl sc first) i = Some (Some inds1) ->
  exists t1 d e,
    run_tok v (firstn (S i) lines) inds sl sc first = Tok.Ok (t1 ++ d ++ [e]) /\
    Forall (fun t => ty t = DEDENT) d /\ length d = length (tl inds1) /\ ty e = ENDMARKER /\
    (skipn (S i) lines <> [] ->
     run_tok v lines inds sl sc first =
     match run_tok v (skipn (S i) lines) inds1 (sl + N.of_nat (S i)) sc false with
     | Tok.Ok rest => Tok.Ok (t1 ++ rest) | Tok.Err x => Tok.Err x end).
Proof.
  intros v lines inds sl sc first i inds1 SL H. unfold run_resume_points in H. unfold run_tok.
  destruct (coll_of v) as [c|]; [|destruct i; discriminate].
  apply tok_resume_points; assumption.
Qed.
Print Assumptions C04_tok_resume.

(* non-vacuity: the region above has clean boundaries after its first, third and fourth line, with the stacks [0], [0;2], [0;2] *)
Example C04_resume_example :
  let lines := [[105;102;32;97;58;10]; [32;32;120;32;61;32;39;39;39;97;10]; [98;39;39;39;10]; [32;32;121;32;61;32;102;34;123;120;125;34;10]] in
  run_resume_points 312 lines [0] 1 0 true = [Some [0]; None; Some [0; 2]; Some [0; 2]].
Proof. vm_compute. reflexivity. Qed.

Theorem C04_engine_restart : forall G TR ns recover q toks t,
  match toks with u :: _ => ty u <> DEDENT | [] => True end ->
  forall p, feed G TR recover (mkP [mkFr q []] [] 0%Z) toks = POk p ->
  plain_rule G (rule_of G (f_dfa (last (stack p) (mkFr 0 [])))) = true ->
  finish G (S (length (stack p))) (stack p) = POk t ->
  exists p', feed G TR recover (mkP [mkFr q ns] [] 0%Z) toks = POk p' /\ stack p' = shiftb ns (stack p) /\
             finish G (S (length (stack p'))) (stack p') = POk (prepend_root ns t).
Proof. exact engine_restart. Qed.
Print Assumptions C04_engine_restart.
