(* C05 - trees conform to the grammar.  Only statements; proofs in LL1.v (abstract), LL1Inst.v (table checkers),
   EngineSound.v (the Engine model).  Per grammar: gen/LL1_<v>.v (C05_sound_<v>, C05_recovered_conform_<v>,
   C05_errors_confined_<v>).

   The statements below have a boolean checker as hypothesis (tables_sound_ok, confine_ok).  The per-grammar files
   establish the same table facts - LL1Inst.sound_tables, EngineConfine.confining - by evaluating the one test
   PlanCheck.plan_check, which searches each table once, and apply the general theorems engine_sound_gen /
   recovered_conform_gen / errors_confined_gen.  The checkers are the direct executable statement of those facts; no
   file evaluates them on a shipped grammar.

   Proved: for every table set passing the checkers, every start rule and every token list - if the strict parser
   accepts without the missing-newline repair (parse_nr), the result is convert_node of the collapsed form of a
   derivation d over the rule automata with
       wf d     : every node of d names a rule of the grammar, has at least one child, and its children drive the
                  automaton of that rule from its start state to a final state (a complete instance of the rule),
       yield d  = the (label, leaf) word of the tokens - nothing dropped, added or reordered,
   and the strict parser (with repair) returns the same tree.  With C08 (the automata are the EBNF rules) the children
   are a sentence of the rule's right-hand side; single-child collapse, the suite / parameter conventions are exactly
   `collapse` and `convert_node`.
   Error confinement (second sentence of C05), proved for both modes and every token list (EngineConfine.v):
       good H t : every rule node of t that has an error node / error leaf among its children has its rule in H,
                  a param node never has one (error nodes may contain whatever was on the stack),
   for every rule set H passing the boolean check confine_ok (plans keep the rule they leave and push chains that
   respect H, arcs stay inside their rule, file_input and suite are in H, parameters / lambdef are not).  Per grammar
   gen/LL1_<v>.v takes H := holders gram_<v> (EngineConfine.holders: file_input, suite and, iterated, every rule with an
   arc labelled by a member), shows what it contains (holders_<v>_are, against the set the translator computed:
   file_input, suite, stmt, compound_stmt and the compound statements; no expression rule, no simple statement) and
   that it confines (C05_errors_confined_<v>).
   Recovered trees and runs that use the missing-newline repair (EngineRecover.v), both modes, every token list: the tree is the
   conversion of the collapsed form of a derivation with error markers in which every rule node - also inside error nodes - is
   a complete instance of its rule, where an error marker stands for a possibly empty sequence of nonterminal arcs, the `stmt`
   arc of a suite may be taken without a child (the fix-up of error_recovery) and the NEWLINE arc of a simple_stmt may be taken
   without a child (final newline absent).
   Not proved (C05_partial): that the childless `stmt` arc of a suite is only taken when the suite holds an error marker, and that
   yield of the derivation is the token word for recovered trees (parse_keeps gives the leaves) - decided by the conformance
   predicate on implementation trees and the parse correspondence. *)
From Coq Require Import List NArith.
Import ListNotations.
Require Import Engine LL1 LL1Inst LL1Engine EngineSound EngineConfine EngineRecover.

Theorem C05_abstract_sound : forall (T St Lb Rl : Type) (mk_node : Rl -> list T -> T)
    (arcT : St -> Lb -> option St) (arcN : St -> Rl -> option St) (start : Rl -> St) (final : St -> bool) (rule_of : St -> Rl)
    (plans : St -> Lb -> option (St * list St)) (validR : Rl -> Prop),
  (forall B, validR B -> rule_of (start B) = B) ->
  (forall q a q', arcT q a = Some q' -> rule_of q' = rule_of q) ->
  (forall q B q', arcN q B = Some q' -> rule_of q' = rule_of q) ->
  (forall q a q' ch, plans q a = Some (q', ch) ->
     (ch = [] /\ arcT q a = Some q') \/ (exists B, arcN q B = Some q' /\ first_chain St Lb Rl arcT arcN start B a ch)) ->
  (forall q B q', arcN q B = Some q' -> validR B) ->
  forall S0, validR S0 -> forall w fr qf ns,
    LL1.feed T St Lb Rl mk_node final rule_of plans w [(start S0, [])] fr ->
    popsf T St Rl mk_node final rule_of fr [(qf, ns)] -> final qf = true -> w <> [] ->
    exists kb, wf T St Lb Rl arcT arcN start final validR (DNode T Lb Rl S0 kb) /\
               yield T Lb Rl (DNode T Lb Rl S0 kb) = w /\ ns = map (collapse T Lb Rl mk_node) kb /\ rule_of qf = S0.
Proof. exact sound_f. Qed.
Print Assumptions C05_abstract_sound.

Theorem C05_engine_sound : forall G TR, tables_sound_ok G TR = true ->
  forall S0 toks t, toks <> [] -> parse_nr G TR S0 toks = POk t ->
  exists kb : list (derivation),
    wf tree N label N (arcT G) (arcN G) (startR G) (final G) (validR G) (DNode tree label N S0 kb) /\
    yield tree label N (DNode tree label N S0 kb) = word_of G toks /\
    convert_node G S0 (map (collapse tree label N (mk_node G)) kb) = POk t /\
    parse G TR false S0 toks = POk t.
Proof. exact engine_sound. Qed.
Print Assumptions C05_engine_sound.

Theorem C05_no_repair_is_strict : forall G TR start toks t, parse_nr G TR start toks = POk t -> parse G TR false start toks = POk t.
Proof. exact parse_nr_strict. Qed.

Theorem C05_plans_are_arcs_or_first_chains : forall G TR, plans_sound_ok G TR = true -> forall q a q' ch, plansI TR q a = Some (q', ch) ->
  (ch = [] /\ arcT G q a = Some q') \/ (exists B, arcN G q B = Some q' /\ first_chain N label N (arcT G) (arcN G) (startR G) B a ch).
Proof. exact plans_sound_sound. Qed.

(* error markers are confined to holder rules: both modes, every token list *)
Theorem C05_errors_confined : forall G TR H, confine_ok G TR H = true ->
  forall recover start q0 toks t,
  assocN start (g_start G) = Some q0 -> inH H (rule_of G q0) = true ->
  parse G TR recover start toks = POk t -> good H t = true.
Proof. exact errors_confined. Qed.
Print Assumptions C05_errors_confined.

(* every tree the engine returns - recovering or strict, with or without the missing-newline repair *)
Theorem C05_recovered_conform : forall G TR, tables_sound_ok G TR = true ->
  forall recover S0 toks t, parse G TR recover S0 toks = POk t ->
  exists R kb, rwf G (RNode R kb) /\ convert_node G R (map (rcollapse G) kb) = POk t.
Proof. exact recovered_conform. Qed.
Print Assumptions C05_recovered_conform.
