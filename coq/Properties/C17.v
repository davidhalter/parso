(* C17 - a torn or corrupt cache file is a miss, never a failure (CacheCrash.v) *)
From Coq Require Import List.
Require Import CacheCrash.
Theorem C17_load_total : forall unpickle d p, load unpickle true d p <> Raise.
Proof. exact load_total. Qed.
Print Assumptions C17_load_total.
Theorem C17_parse_total : forall unpickle d cur p now, exists v d', parse_cached unpickle true d cur p now = Some (v, d').
Proof. exact parse_total. Qed.
Print Assumptions C17_parse_total.
Theorem C17_self_repair : forall unpickle, (forall v ct, unpickle (Intact v ct) = UOk v ct) ->
  forall d cur p now, p <= now -> load unpickle true d p = Miss ->
  exists d', parse_cached unpickle true d cur p now = Some (cur, d') /\ load unpickle true d' p = Hit cur.
Proof. exact self_repair. Qed.
Print Assumptions C17_self_repair.
Theorem C17_hit_is_recorded : forall unpickle c d p v, load unpickle c d p = Hit v ->
  exists b pm ct, d = File b pm /\ unpickle b = UOk v ct /\ p <= pm /\ p <= ct.
Proof. exact hit_is_recorded. Qed.
Theorem C17_cleanup_keeps_recent : forall survival now es e,
  In e es -> now < e_atime e + survival -> In e (clear_inactive survival now es).
Proof. exact cleanup_keeps_recent. Qed.
Print Assumptions C17_cleanup_keeps_recent.
Theorem C17_old_code_refuted : load strict_unpickle false (File (Torn 0 5 3) 9) 5 = Raise.
Proof. exact old_code_refuted. Qed.
