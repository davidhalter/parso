(* C09 (and the token half of C01): the token stream tiles the input.
   TokTiles.tok_tiles is proved for ANY token collection whose pseudo_token has the shape
   (group 1)(group 2) with group 1 not re-used inside group 2, any identifier / strip oracles, any lines,
   indentation stack, start line and first-token flag.  Here it is instantiated with the collections the
   translator regenerated from the running parso (the shape check is a table obligation, by vm_compute).

   The model is the GUARDED tokenizer (Tok.v): at five places where the Python code silently relies on
   f-string bookkeeping facts the model returns `Err Guard` instead of tokens; the theorem says nothing when
   the model returns an error, and the tok correspondence stream establishes that the model returns exactly
   parso's tokens (never Guard) on every generated input. *)
From Coq Require Import List NArith Bool Lia.
Import ListNotations.
Require Import Regex RegexFacts Tok TokFacts TokTiles TokShape TokBlockPos Lines Prefix PrefixTiles Tables Model.
Open Scope N_scope.

Lemma pseudo_shapes_ok : forallb (fun '(v, c) => shape12 (pseudo c)) colls = true.
Proof. vm_compute. reflexivity. Qed.

Lemma coll_of_in v c : coll_of v = Some c -> In (v, c) colls.
Proof.
  unfold coll_of. induction colls as [|[a x] r IH]; simpl; [discriminate|].
  destruct (a =? v) eqn:E; [intros H; inversion H; subst; apply N.eqb_eq in E; subst; left; reflexivity|intros H; right; apply IH; exact H].
Qed.
Lemma coll_of_shape v c : coll_of v = Some c -> shape12 (pseudo c) = true.
Proof. intros E. pose proof pseudo_shapes_ok as S. rewrite forallb_forall in S. exact (S _ (coll_of_in _ _ E)). Qed.

Theorem C09_tokens_tile_lines : forall v lines inds sl first toks,
  run_tok v lines inds sl 0 first = Tok.Ok toks -> emit toks = concat lines.
Proof.
  intros v lines inds sl first toks H. unfold run_tok in H. destruct (coll_of v) as [c|] eqn:E; [|discriminate].
  pose proof (coll_of_shape _ _ E) as S.
  eapply tok_tiles; eassumption.
Qed.
Print Assumptions C09_tokens_tile_lines.

(* for a text: the concatenation of prefix ++ string of all tokens is the text itself *)
Theorem C09_tokens_tile_text : forall v s toks, tokenize_text v s = Tok.Ok toks -> emit toks = s.
Proof.
  intros v s toks H. unfold tokenize_text in H. rewrite (C09_tokens_tile_lines _ _ _ _ _ _ H). apply Lines.split_keep_concat.
Qed.
Print Assumptions C09_tokens_tile_text.

(* non-vacuity: a concrete text with an f-string over two lines, a continued string and a comment *)
Example C09_tile_example :
  match tokenize_text 310 [102;34;123;120;10;125;34;32;35;99;10;115;61;39;97;92;10;98;39;10] with
  | Tok.Ok toks => (8 <=? N.of_nat (length toks)) = true
  | Tok.Err _ => False end.
Proof. vm_compute. reflexivity. Qed.

(* The shape of the stream: one end marker, balanced zero-width INDENT / DEDENT.
   TokShape.tok_shape, for ANY collection, oracles, lines, start line / column and non-empty indentation stack:
   the stream is body ++ [ENDMARKER] and the depth walk over body (see TokShape.run) starts at
   (length inds - 1), never goes negative, and ends at 0. *)
Theorem C09_token_shape_lines : forall v lines inds sl sc first toks,
  run_tok v lines inds sl sc first = Tok.Ok toks -> inds <> [] ->
  exists body e, toks = body ++ [e] /\ ty e = ENDMARKER /\ ts e = [] /\ run (depth inds) body = Some O.
Proof.
  intros v lines inds sl sc first toks H NE. unfold run_tok in H. destruct (coll_of v) as [c|]; [|discriminate].
  eapply tok_shape; eassumption.
Qed.
Print Assumptions C09_token_shape_lines.

Theorem C09_token_shape : forall v s toks, tokenize_text v s = Tok.Ok toks ->
  exists body e, toks = body ++ [e] /\ ty e = ENDMARKER /\ ts e = [] /\ run 0 body = Some O.
Proof. intros v s toks H. eapply C09_token_shape_lines in H; [exact H|discriminate]. Qed.

(* what the walk says, spelled out *)
Theorem C09_one_endmarker : forall v s toks, tokenize_text v s = Tok.Ok toks ->
  exists body e, toks = body ++ [e] /\ ty e = ENDMARKER /\ forall t, In t body -> ty t <> ENDMARKER.
Proof.
  intros v s toks H. destruct (C09_token_shape _ _ _ H) as (body & e & E & TE & _ & R). exists body, e.
  split; [exact E|split; [exact TE|]]. intros t I. exact (proj1 (run_tokens _ _ _ _ R I)).
Qed.
Theorem C09_indent_dedent_balanced : forall v s toks, tokenize_text v s = Tok.Ok toks ->
  count is_indent toks = count is_dedent toks /\
  (forall a b, toks = a ++ b -> (count is_dedent a <= count is_indent a)%nat) /\
  (forall t, In t toks -> ty t = INDENT \/ ty t = DEDENT -> ts t = [] /\ tpre t = []).
Proof.
  intros v s toks H. destruct (C09_token_shape _ _ _ H) as (body & e & E & TE & _ & R). subst toks.
  assert (CE: forall k, k ENDMARKER = false -> forall l, count k (l ++ [e]) = count k l).
  { intros k K l. unfold count. rewrite filter_app, app_length. simpl. rewrite TE, K. simpl. lia. }
  split; [|split].
  - rewrite !CE by reflexivity. pose proof (run_balance _ _ _ R). lia.
  - (* a proper prefix of the stream is a prefix of the body *)
    intros a b E. destruct b as [|x b _] using rev_ind.
    + rewrite app_nil_r in E. subst a. rewrite !CE by reflexivity. pose proof (run_balance _ _ _ R). lia.
    + rewrite app_assoc in E. apply app_inj_tail in E as [-> _]. pose proof (run_never_negative _ _ _ _ R). lia.
  - intros t I TY. apply in_app_or in I as [I|[I|[]]].
    + exact (proj2 (run_tokens _ _ _ _ R I) TY).
    + subst t. rewrite TE in TY. destruct TY; discriminate.
Qed.
Print Assumptions C09_indent_dedent_balanced.

Example C09_shape_example :
  match tokenize_text 310 [105;102;32;120;58;10;32;121;10;32;32;122;10] with
  | Tok.Ok toks => count is_indent toks = 2%nat /\ count is_dedent toks = 2%nat
  | Tok.Err _ => False end.
Proof. vm_compute. split; reflexivity. Qed.

(* Where the zero-width INDENT / DEDENT tokens are (the positions of all other tokens are C03_token_positions).  Every
   INDENT / DEDENT token is followed - after INDENT / DEDENT / ERROR_DEDENT tokens only - by a real token, and carries
   that token's (line, column). *)
Theorem C09_block_tokens_at_next_real : forall v lines inds sl first toks pre t post,
  run_tok v lines inds sl 0 first = Tok.Ok toks -> toks = pre ++ t :: post -> isblock t = true ->
  exists bs u rest, post = bs ++ u :: rest /\ forallb (fun x => isblock x || transparent x) bs = true /\ real u = true /\ tpos u = tpos t.
Proof.
  intros v lines inds sl first toks pre t post H E K. unfold run_tok in H. destruct (coll_of v) as [c|] eqn:EC; [|discriminate].
  pose proof (coll_of_shape _ _ EC) as S.
  eapply block_tokens_at_next_real; [eapply tok_block_positions; eassumption|exact E|exact K].
Qed.
Print Assumptions C09_block_tokens_at_next_real.

(* split_prefix tiles the prefix.
   For the regenerated prefix regex (shape obligation below): whenever split_prefix returns parts, the concatenation
   of spacing ++ value over the parts is the prefix.  (Model guard: an empty value is matched only at the end of the
   prefix; `split_prefix never fails` is NOT a theorem - known finding F2 is a counterexample.) *)
Lemma prefix_shape_ok : shape12 prefix_re = true.
Proof. vm_compute. reflexivity. Qed.
Theorem C09_split_prefix_tiles : forall p line col parts,
  split_prefix_m p line col = Prefix.POk parts -> parts_text parts = p.
Proof. intros p line col parts H. unfold split_prefix_m in H. eapply split_prefix_tiles; [exact prefix_shape_ok|exact H]. Qed.
Print Assumptions C09_split_prefix_tiles.
Example C09_split_prefix_example :
  match split_prefix_m [32;35;120;10;92;10;32;12;32] 3 0 with Prefix.POk parts => length parts = 5%nat | _ => False end.
Proof. vm_compute. reflexivity. Qed.

Theorem C09_match_soundness : forall r i rest cs k o, m r i rest cs k = Some o -> called r i rest cs k o.
Proof. exact m_sound. Qed.
Theorem C09_pseudo_spans : forall r s pos e cs, shape12 r = true -> rmatch r s pos = Some (e, cs) ->
  exists j, grp 1 cs = Some (pos, j) /\ grp 2 cs = Some (j, e) /\ pos <= j /\ j <= e.
Proof. exact shape12_spans. Qed.
