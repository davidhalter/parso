(* C18 - shared state: under every interleaving of the threads, whether they fill the table by setdefault or by plain
   assignment (which may set a key again), every entry of the table and every result a thread got is f of its key *)
From Coq Require Import List.
Require Import Memo.
Theorem C18_memo_linearizable : forall f use_setdefault schedule w, Inv f w ->
  let w' := run f use_setdefault w schedule in
  (forall k v, get (tab w') k = Some v -> v = f k) /\
  (forall th k v, In th (threads w') -> In (k, v) (results th) -> v = f k).
Proof. exact memo_linearizable. Qed.
Print Assumptions C18_memo_linearizable.
Theorem C18_initial_state_ok : forall f progs, Inv f (init progs).
Proof. exact init_inv. Qed.
(* determinism of the model pipeline is definitional: parse_text is a Gallina function *)
Require Import Model.
Theorem C18_parse_deterministic : forall v m r s, parse_text v m r s = parse_text v m r s.
Proof. reflexivity. Qed.
