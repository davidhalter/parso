(* C11 - leaf stepping and position lookup (Nav.v): statements over ALL trees, not only parser output *)
From Coq Require Import List NArith.
Import ListNotations.
Require Import Engine Tree Nav.
Local Open Scope nat_scope.

(* get_next_leaf / get_previous_leaf enumerate the leaves in order: successor / predecessor in the in-order leaf list *)
Theorem C11_next_leaf : forall t, nonempty_nodes t ->
  forall l1 p l2, leaf_paths t = l1 ++ p :: l2 -> get_next_leaf t p = hd_error l2.
Proof. exact get_next_leaf_spec. Qed.
Print Assumptions C11_next_leaf.
Theorem C11_previous_leaf : forall t, nonempty_nodes t ->
  forall l1 p l2, leaf_paths t = l1 ++ p :: l2 -> get_previous_leaf t p = last_error l1.
Proof. exact get_previous_leaf_spec. Qed.
Print Assumptions C11_previous_leaf.
Theorem C11_first_leaf : forall t, nonempty_nodes t -> hd_error (leaf_paths t) = Some (first_leaf_path t).
Proof. exact first_leaf_spec. Qed.
Theorem C11_last_leaf : forall t, nonempty_nodes t -> last_error (leaf_paths t) = Some (last_leaf_path t).
Proof. exact last_leaf_spec. Qed.

(* get_leaf_for_position on (line, column) positions: for every tree whose leaf ends are monotone and every position not
   after the end of the tree, the result is the first leaf (in order) that does not end before the position - or None
   when prefixes are excluded and the position lies before that leaf's start *)
Theorem C11_lookup : forall k cs p incl,
  wf_mono pos pos_leb leaf_end (0, 0)%N (Node k cs) -> pos_leb p (nav_end (Node k cs)) = true ->
  nav_lookup (Node k cs) p incl = lookup_spec_fn pos pos_leb leaf_start leaf_end (0, 0)%N (Node k cs) p incl.
Proof. exact nav_lookup_spec. Qed.
Print Assumptions C11_lookup.

(* the binary search itself: first index whose end is not before the position *)
Theorem C11_binary_search : forall (P : Type) (leb : P -> P -> bool), (forall a b c, leb a b = true -> leb b c = true -> leb a c = true) ->
  forall lend dflt fuel cs p lower upper,
  mono P leb lend dflt cs -> lower <= upper -> upper < length cs -> upper - lower < fuel ->
  leb p (epos P lend dflt (nth_t cs upper)) = true ->
  (forall i, i < lower -> leb p (epos P lend dflt (nth_t cs i)) = false) ->
  exists k, bsearch P leb lend dflt fuel cs p lower upper = Some k /\ lower <= k <= upper /\
            leb p (epos P lend dflt (nth_t cs k)) = true /\ forall i, i < k -> leb p (epos P lend dflt (nth_t cs i)) = false.
Proof. intros P leb T lend dflt. exact (bsearch_spec P leb T lend dflt). Qed.

(* non-vacuity: a concrete tree meets the hypotheses and the lookup finds the expected leaf *)
Example C11_lookup_example :
  let t := Node KErrorNode [Leaf KName [120%N] [] 1%N 0%N; Node KErrorNode [Leaf KOperator [61%N] [32%N] 1%N 2%N; Leaf KNumber [49%N] [32%N; 32%N] 1%N 5%N]; Leaf KNewline [10%N] [] 1%N 6%N] in
  nav_lookup t (1, 4)%N true = FLeaf [1; 1] /\ nav_lookup t (1, 4)%N false = FNone /\ nav_lookup t (1, 5)%N false = FLeaf [1; 1]
  /\ get_next_leaf t [1; 1] = Some [2] /\ get_previous_leaf t [1; 0] = Some [0].
Proof. vm_compute. repeat split. Qed.
