(* C02 - shape of what the parser returns (the part that is a theorem).
   For every version, mode, start rule and text, on the pipeline model: if a tree is returned,
     - every interior node has at least one child (EngineShape.parse_nonempty_nodes: pop / convert_node /
       stack removal / error recovery never build an empty node),
     - the token stream it was built from ends with exactly one ENDMARKER (C09_one_endmarker),
     - the tree reproduces the text (C01_roundtrip) and keeps every text-carrying token as a leaf (C03).
   Not proved (C02_total in DESIGN.md): that the pipeline always returns a tree (never an exception) and that the last
   child of the root is the end marker - decided by the tok / parse correspondence (the model returns what parso
   returns, including exceptions) and the no-exception / module-shape predicates on the implementation. *)
From Coq Require Import List NArith Bool.
Import ListNotations.
Require Import Tok Engine EngineShape EngineFuel Tree Model.
Require C09 C01.
Open Scope N_scope.

Theorem C02_engine_nonempty_nodes : forall G TR recover start toks t,
  parse G TR recover start toks = POk t -> (exists u, In u toks /\ ty u <> DEDENT) -> ne t = true.
Proof. exact parse_nonempty_nodes. Qed.
Print Assumptions C02_engine_nonempty_nodes.

Theorem C02_nonempty_nodes : forall v m start s t, parse_text v m start s = OTree t -> ne t = true.
Proof.
  intros v m start s t H. destruct (C01.parse_text_tree _ _ _ _ _ H) as (toks & G & TR & rc & S0 & TK & P).
  destruct (C09.C09_token_shape _ _ _ TK) as (body & e & E & TE & _).
  eapply parse_nonempty_nodes; [exact P|]. exists e. split; [subst toks; apply in_or_app; right; left; reflexivity|rewrite TE; discriminate].
Qed.
Print Assumptions C02_nonempty_nodes.

(* the Prop form used by the navigation (C11) and get_code (C01) theorems *)
Lemma ne_nonempty_nodes : forall t, ne t = true -> nonempty_nodes t.
Proof.
  induction t as [|k cs IH] using tree_ind'; intros H; [exact I|].
  rewrite ne_node in H. apply andb_true_iff in H as [H1 H2]. split; [destruct cs; discriminate|]. clear H1.
  induction IH as [|c r Hc _ IHr]; [exact I|].
  rewrite nes_cons in H2. apply andb_true_iff in H2 as [A B]. split; [apply Hc; exact A|apply IHr; exact B].
Qed.
Theorem C02_parsed_trees_have_nonempty_nodes : forall v m start s t, parse_text v m start s = OTree t -> nonempty_nodes t.
Proof. intros v m start s t H. apply ne_nonempty_nodes. eapply C02_nonempty_nodes. exact H. Qed.

(* termination of the engine: the fuel the model passes to add_token / finish always suffices and the stack never runs
   empty - for all tables, both modes, every start rule and token list *)
Theorem C02_engine_fuel_suffices : forall G TR recover start toks,
  parse G TR recover start toks <> PErr PFuel /\ parse G TR recover start toks <> PErr TooMuchInput.
Proof. exact parse_fuel_suffices. Qed.
Print Assumptions C02_engine_fuel_suffices.

Example C02_example :
  match parse_text 310 Recover 0 [100;101;102;32;102;40;10;32;32;41;58;10;32;120;32;61;10] with
  | OTree t => ne t = true /\ no_error t = false
  | _ => False end.
Proof. vm_compute. split; reflexivity. Qed.
