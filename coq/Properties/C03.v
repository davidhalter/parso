(* C03 (and the position clause of C09): positions are true.  The tokenizer's part is proved in TokPos.v, the parser's in
   ParseKeeps.v; here they are put together for the text pipeline and carried from tokens to leaves.

   loc lines sl first o (l, c): text offset o (in the concatenation of `lines`) lies on line number l (lines are
   numbered from sl) at column c, where a BOM at the very start of the first line has zero width.  With
   lines = split_keep text (Lines.v: the text cut at \n, \r\n and \r only) this is the real location of offset o.

   wfp lc o toks walks the token stream from offset o: every token that is not a zero-width block token
   (INDENT / DEDENT / ERROR_DEDENT) starts - after its prefix - exactly at the offset its (line, column) names, and the
   walk advances by prefix ++ string; block tokens are zero-width.  wfl is the same walk over the text-carrying
   leaves of a tree. *)
From Coq Require Import List NArith Lia.
Import ListNotations.
Require Import Tok TokTiles TokPos ParseKeeps Lines EndPos Model.
Require C09 C01.
Open Scope N_scope.

Theorem C03_token_positions : forall v lines inds sl first toks,
  run_tok v lines inds sl 0 first = Tok.Ok toks -> 1 <= sl -> lines <> [] ->
  wfp (loc lines sl first) 0 toks.
Proof.
  intros v lines inds sl first toks H SL NE. unfold run_tok in H. destruct (coll_of v) as [c|] eqn:E; [|discriminate].
  pose proof (C09.coll_of_shape _ _ E) as S.
  eapply tok_positions; eassumption.
Qed.
Print Assumptions C03_token_positions.

Fixpoint wfl (lc : N -> N * N -> Prop) (o : N) (l : list linfo) : Prop :=
  match l with
  | [] => True
  | i :: r => lc (o + len (li_prefix i)) (li_line i, li_col i) /\ wfl lc (o + len (li_prefix i) + len (li_value i)) r
  end.

Lemma wfp_text_tokens lc : forall toks o, wfp lc o toks -> wfl lc o (text_tokens toks).
Proof.
  induction toks as [|t r IH]; intros o H; [exact I|]. destruct H as [H1 H2].
  change (text_tokens (t :: r)) with (g_info (ts t) (tpre t) (tline t) (tcol t) ++ text_tokens r).
  unfold g_info. unfold emit1 in *.
  destruct (tpre t ++ ts t) as [|x y] eqn:E.
  - cbn [app]. apply IH. rewrite len_nil, N.add_0_r in H2. exact H2.
  - cbn [app wfl li_prefix li_value li_line li_col]. destruct (blockish t); [discriminate|].
    split; [exact H1|]. apply IH. rewrite <- E, len_app, N.add_assoc in H2. exact H2.
Qed.

(* end to end on the pipeline model: the text-carrying leaves of the parsed tree, in order, are located truly *)
Theorem C03_leaf_positions : forall v m start s t, parse_text v m start s = OTree t ->
  wfl (loc (Lines.split_keep s) 1 true) 0 (text_leaves t).
Proof.
  intros v m start s t H. destruct (C01.parse_text_keeps _ _ _ _ _ H) as (toks & TK & _ & E).
  rewrite E. apply wfp_text_tokens.
  eapply C03_token_positions; [exact TK|lia|apply Lines.split_keep_nonempty].
Qed.
Print Assumptions C03_leaf_positions.

(* and those leaves are exactly the text-carrying tokens: nothing is dropped, duplicated or reordered *)
Theorem C03_leaves_are_tokens : forall v m start s t toks, tokenize_text v s = Tok.Ok toks -> parse_text v m start s = OTree t ->
  text_leaves t = text_tokens toks.
Proof.
  intros v m start s t toks TK H. destruct (C01.parse_text_keeps _ _ _ _ _ H) as (toks' & TK' & _ & E).
  rewrite TK in TK'. inversion TK'; subst toks'. exact E.
Qed.

(* non-vacuity: BOM, a two-line f-string, a continued string, an indented block *)
Example C03_example :
  match parse_text 310 Recover 0 [65279;105;102;32;120;58;10;32;32;121;32;61;32;102;34;34;34;97;10;98;123;99;125;34;34;34;10;32;32;122;61;39;113;92;10;114;39;10] with
  | OTree t => (10 <=? N.of_nat (length (text_leaves t))) = true
  | _ => False end.
Proof. vm_compute. reflexivity. Qed.

(* end positions: Leaf.end_pos (computed from the value with split_lines) is the position reached by walking the value from
   the start position, counting exactly \n, \r\n and \r as line breaks *)
Theorem C03_end_pos_is_walk : forall value line col, end_pos value line col = walk value line col false.
Proof. exact end_pos_is_walk. Qed.
Print Assumptions C03_end_pos_is_walk.
Example C03_end_pos_example : end_pos [39;39;39;97;13;10;98;13;99;10;39;39;39] 3 4 = (6, 3).
Proof. vm_compute. reflexivity. Qed.

(* the module ends at the end of the input: the end marker, the last token, sits at the offset len(text), i.e. on the last
   line of split_keep text (line count = number of line breaks + 1) at the column where the text ends *)
Theorem C03_endmarker_at_end_of_input : forall v s toks, tokenize_text v s = Tok.Ok toks ->
  exists body e, toks = body ++ [e] /\ ty e = ENDMARKER /\ ts e = [] /\
    loc (Lines.split_keep s) 1 true (len s) (tline e, tcol e).
Proof.
  intros v s toks H.
  destruct (C09.C09_token_shape _ _ _ H) as (body & e & E & TE & SE & _).
  exists body, e. split; [exact E|split; [exact TE|split; [exact SE|]]].
  pose proof (C09.C09_tokens_tile_text _ _ _ H) as TILE.
  unfold tokenize_text in H.
  pose proof (C03_token_positions _ _ _ _ _ _ H ltac:(lia) (Lines.split_keep_nonempty s)) as W.
  subst toks. apply wfp_app in W as [_ W]. apply wfp_one in W.
  assert (NB: blockish e = false) by (unfold blockish; rewrite TE; reflexivity). rewrite NB in W.
  assert (L: len s = 0 + len (emit body) + len (tpre e)).
  { rewrite <- TILE, emit_app, len_app, emit_one, SE, app_nil_r. unfold len, Tok.len. lia. }
  rewrite L. exact W.
Qed.
Print Assumptions C03_endmarker_at_end_of_input.
