From Coq Require Import List NArith Bool Lia.
Import ListNotations.
Require Import Tok.
Open Scope N_scope.

Lemma skipn_app_length {A} (l1 l2 : list A) : skipn (length l1) (l1 ++ l2) = l2.
Proof. induction l1; simpl; auto. Qed.
Lemma skipn_add {A} (l : list A) : forall a b, skipn a (skipn b l) = skipn (b + a) l.
Proof.
  intros a b. revert l. induction b as [|b IH]; intros l; [reflexivity|]. destruct l as [|x l]; simpl; [destruct a; reflexivity|apply IH].
Qed.
Lemma firstn_add' {A} (l : list A) : forall a b, firstn (a + b) l = firstn a l ++ firstn b (skipn a l).
Proof.
  intros a b. revert l. induction a as [|a IH]; intros l; [reflexivity|]. destruct l as [|x l]; simpl; [destruct b; reflexivity|rewrite IH; reflexivity].
Qed.

Lemma from_upto s a : upto s a ++ from s a = s.
Proof. unfold upto, from. apply firstn_skipn. Qed.
Lemma from_ge s a : len s <= a -> from s a = [].
Proof. unfold from, len. intros H. apply skipn_all2. lia. Qed.
Lemma from_from s a b : from (from s a) b = from s (a + b).
Proof. unfold from. rewrite skipn_add. f_equal. lia. Qed.
Lemma sub_from s a b : a <= b -> from s a = sub s a b ++ from s b.
Proof.
  intros H. unfold sub, from.
  replace (N.to_nat b) with (N.to_nat a + N.to_nat (b - a))%nat by lia.
  rewrite <- skipn_add. symmetry. apply firstn_skipn.
Qed.
Lemma sub_to_len s a : sub s a (len s) = from s a.
Proof. unfold sub, from, len. apply firstn_all2. rewrite skipn_length. lia. Qed.
Lemma from_len_app (p r : str) : from (p ++ r) (len p) = r.
Proof. unfold from, len. rewrite Nat2N.id. apply skipn_app_length. Qed.

Lemma from_nth s a c : nth_error s (N.to_nat a) = Some c -> from s a = c :: from s (a + 1).
Proof.
  unfold from. replace (N.to_nat (a + 1)) with (S (N.to_nat a)) by lia.
  generalize (N.to_nat a) as n. intros n. revert s. induction n as [|n IH]; intros s H; destruct s as [|x s]; simpl in *; try discriminate.
  - inversion H; reflexivity.
  - apply IH. exact H.
Qed.
Lemma sub_head s a b c r : sub s a b = c :: r -> nth_error s (N.to_nat a) = Some c.
Proof.
  unfold sub. generalize (N.to_nat (b - a)) as k, (N.to_nat a) as n. intros k n. revert s.
  induction n as [|n IH]; intros s H; destruct s as [|x s]; simpl in *.
  - destruct k; discriminate.
  - destruct k; [discriminate|]. inversion H; reflexivity.
  - destruct k; discriminate.
  - apply IH. exact H.
Qed.
Lemma sub_cons_lt (l : str) a b c r : sub l a b = c :: r -> a < b.
Proof. unfold sub. intros H. destruct (N.to_nat (b - a)) eqn:E; [discriminate|lia]. Qed.
Lemma nth_error_lt (l : str) e c : nth_error l (N.to_nat e) = Some c -> e < len l.
Proof. intros H. assert (X: nth_error l (N.to_nat e) <> None) by (rewrite H; discriminate). apply nth_error_Some in X. unfold len. lia. Qed.

Lemma starts_with_app p s : starts_with p s = true -> exists r, s = p ++ r.
Proof.
  revert s. induction p as [|x p IH]; intros s H; [exists s; reflexivity|].
  destruct s as [|y s]; [discriminate|]. simpl in H. apply andb_true_iff in H as [H1 H2].
  apply N.eqb_eq in H1. subst. destruct (IH s H2) as (r & ->). exists r. reflexivity.
Qed.

Lemma len_app (a b : str) : len (a ++ b) = len a + len b.
Proof. unfold len. rewrite app_length. lia. Qed.
Lemma len_nil : len [] = 0.
Proof. reflexivity. Qed.
Lemma len_cons (c : N) (s : str) : len (c :: s) = 1 + len s.
Proof. unfold len. simpl length. lia. Qed.
Lemma len_from s a : len (from s a) = len s - a.
Proof. unfold len, from. rewrite skipn_length. lia. Qed.
Lemma len_sub s a b : a <= b -> b <= len s -> len (sub s a b) = b - a.
Proof. intros H1 H2. unfold sub, len in *. rewrite firstn_length, skipn_length. lia. Qed.
Lemma len_upto s b : len (upto s b) = N.min b (len s).
Proof. unfold upto, len. rewrite firstn_length. lia. Qed.

Lemma last_opt_split {A} (l : list A) x : last_opt l = Some x -> l = removelast l ++ [x].
Proof.
  induction l as [|a r IH]; [discriminate|]. destruct r as [|b r]; simpl; intros H.
  - inversion H; reflexivity.
  - simpl in IH. rewrite <- IH by exact H. reflexivity.
Qed.
Lemma last_opt_none {A} (l : list A) : last_opt l = None -> l = [].
Proof. induction l as [|a r IH]; [reflexivity|]. destruct r as [|b r]; [discriminate|]. intros H. simpl in H. specialize (IH H). discriminate. Qed.
Lemma length_split_last {A} (l : list A) x : last_opt l = Some x -> length l = S (length (removelast l)).
Proof. intros H. rewrite (last_opt_split l x H) at 1. rewrite app_length. simpl. lia. Qed.
Lemma last_opt_set_last {A} (l : list A) x : last_opt (set_last l x) = Some x.
Proof. unfold set_last. induction (removelast l) as [|a r IH]; [reflexivity|]. simpl. destruct (r ++ [x]) eqn:E; [destruct r; discriminate|exact IH]. Qed.
Lemma removelast_set_last {A} (l : list A) x : removelast (set_last l x) = removelast l.
Proof. unfold set_last. apply removelast_last. Qed.
