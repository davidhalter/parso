From Coq Require Import List NArith Bool Lia.
Import ListNotations.
Open Scope N_scope.

Definition str := list N.

(* Python's str.splitlines separators *)
Definition is_sep (c : N) : bool :=
  existsb (N.eqb c) [10; 13; 11; 12; 28; 29; 30; 133; 8232; 8233].
(* parso.utils._NON_LINE_BREAKS *)
Definition non_line_break (c : N) : bool :=
  existsb (N.eqb c) [11; 12; 28; 29; 30; 133; 8232; 8233].
Definition is_break (c : N) : bool := (c =? 10) || (c =? 13).

Lemma sep_cases c : is_sep c = is_break c || non_line_break c.
Proof.
  unfold is_sep, is_break, non_line_break; simpl.
  repeat (destruct (c =? _); simpl; try reflexivity).
Qed.
Lemma break_not_nlb c : is_break c = true -> non_line_break c = false.
Proof.
  unfold is_break, non_line_break; simpl. intros H.
  apply orb_true_iff in H as [H|H]; apply N.eqb_eq in H; subst; reflexivity.
Qed.

(* str.splitlines(keepends=True) *)
Fixpoint splitlines (s cur : str) : list str :=
  match s with
  | [] => match cur with [] => [] | _ => [cur] end
  | c :: t =>
    if is_sep c then
      match t with
      | x :: t' => if (c =? 13) && (x =? 10) then (cur ++ [c; x]) :: splitlines t' []
                   else (cur ++ [c]) :: splitlines t []
      | [] => (cur ++ [c]) :: splitlines t []
      end
    else splitlines t (cur ++ [c])
  end.

(* the merge pass of parso.utils.split_lines(keepends=True) *)
Definition last_chr (l : str) : option N := match rev l with [] => None | x :: _ => Some x end.
Definition ends_nlb (l : str) : bool := match last_chr l with Some c => non_line_break c | None => false end.
Definition ends_break (l : str) : bool := match last_chr l with Some c => is_break c | None => false end.

Fixpoint merge (l : list str) : list str :=
  match l with
  | [] => []
  | x :: rest =>
    let r := merge rest in
    if ends_nlb x then match r with y :: r' => (x ++ y) :: r' | [] => [x] end
    else x :: r
  end.

(* the '' that split_lines appends when the text ends in \n or \r or is empty *)
Definition trail (w : str) : list str :=
  if ends_break w || match w with [] => true | _ => false end then [[]] else [].

Definition split_keep (s : str) : list str := merge (splitlines s []) ++ trail s.

(* the specification: cut at \n, \r\n, \r only *)
Fixpoint cut (s cur : str) : list str :=
  match s with
  | [] => [cur]
  | c :: t =>
    if is_break c then
      match t with
      | x :: t' => if (c =? 13) && (x =? 10) then (cur ++ [c; x]) :: cut t' []
                   else (cur ++ [c]) :: cut t []
      | [] => (cur ++ [c]) :: cut t []
      end
    else cut t (cur ++ [c])
  end.

Lemma last_chr_app l c : last_chr (l ++ [c]) = Some c.
Proof. unfold last_chr. rewrite rev_app_distr. reflexivity. Qed.
Lemma last_chr_app2 l c d : last_chr (l ++ [c; d]) = Some d.
Proof. unfold last_chr. rewrite rev_app_distr. reflexivity. Qed.
Lemma ends_nlb_app l c : ends_nlb (l ++ [c]) = non_line_break c.
Proof. unfold ends_nlb. rewrite last_chr_app. reflexivity. Qed.
Lemma ends_break_app l c : ends_break (l ++ [c]) = is_break c.
Proof. unfold ends_break. rewrite last_chr_app. reflexivity. Qed.

Lemma trail_snoc l c : trail (l ++ [c]) = if is_break c then [[]] else [].
Proof. unfold trail. rewrite ends_break_app. destruct l; destruct (is_break c); reflexivity. Qed.
Lemma trail_app_nonempty w t : t <> [] -> trail (w ++ t) = trail t.
Proof. intros Ht. destruct (exists_last Ht) as (l & c & ->). rewrite app_assoc, !trail_snoc. reflexivity. Qed.
Lemma trail_after_break w t : ends_break w = true -> trail (w ++ t) = trail t.
Proof.
  intros B. destruct t; [|apply trail_app_nonempty; discriminate].
  rewrite app_nil_r. unfold trail. rewrite B. reflexivity.
Qed.

Definition take_break (c : N) (t : str) : str * str :=
  match t with
  | x :: t' => if (c =? 13) && (x =? 10) then ([c; x], t') else ([c], t)
  | [] => ([c], t)
  end.

Lemma splitlines_nil cur : splitlines [] cur = match cur with [] => [] | _ => [cur] end.
Proof. reflexivity. Qed.
Lemma splitlines_eq c t cur :
  splitlines (c :: t) cur =
  if is_sep c then (cur ++ fst (take_break c t)) :: splitlines (snd (take_break c t)) []
  else splitlines t (cur ++ [c]).
Proof.
  simpl. destruct (is_sep c); [|reflexivity]. unfold take_break.
  destruct t as [|x t']; [reflexivity|]. destruct ((c =? 13) && (x =? 10)); reflexivity.
Qed.
Lemma cut_nil cur : cut [] cur = [cur].
Proof. reflexivity. Qed.
Lemma cut_eq c t cur :
  cut (c :: t) cur =
  if is_break c then (cur ++ fst (take_break c t)) :: cut (snd (take_break c t)) []
  else cut t (cur ++ [c]).
Proof.
  simpl. destruct (is_break c); [|reflexivity]. unfold take_break.
  destruct t as [|x t']; [reflexivity|]. destruct ((c =? 13) && (x =? 10)); reflexivity.
Qed.
Global Opaque splitlines cut.

Lemma take_break_app c t : fst (take_break c t) ++ snd (take_break c t) = c :: t.
Proof. unfold take_break. destruct t as [|x t']; simpl; [reflexivity|]. destruct ((c =? 13) && (x =? 10)); reflexivity. Qed.
Lemma take_break_not13 c t : (c =? 13) = false -> take_break c t = ([c], t).
Proof. intros H. unfold take_break. destruct t; [reflexivity|]. rewrite H. reflexivity. Qed.
Lemma take_break_ends c t cur :
  ends_break (cur ++ fst (take_break c t)) = is_break c /\ ends_nlb (cur ++ fst (take_break c t)) = non_line_break c.
Proof.
  unfold take_break. destruct t as [|x t']; [cbn [fst]; rewrite ends_break_app, ends_nlb_app; split; reflexivity|].
  destruct ((c =? 13) && (x =? 10)) eqn:E; cbn [fst]; [|rewrite ends_break_app, ends_nlb_app; split; reflexivity].
  apply andb_true_iff in E as [Ec Ex]. apply N.eqb_eq in Ec, Ex. subst.
  unfold ends_break, ends_nlb. rewrite last_chr_app2. split; reflexivity.
Qed.

(* the scanners continue on t or, after \r\n, on its tail: induction over strings in that form *)
Lemma break_ind (P : str -> Prop) :
  P [] -> (forall c t, P t -> P (snd (take_break c t)) -> P (c :: t)) -> forall s, P s.
Proof.
  intros H0 HS s. enough (P s /\ P (tl s)) by tauto.
  induction s as [|c t [IH1 IH2]]; [split; exact H0|]. split; [|exact IH1].
  apply HS; [exact IH1|]. unfold take_break. destruct t as [|x t']; [exact IH1|].
  destruct ((c =? 13) && (x =? 10)); [exact IH2|exact IH1].
Qed.

Lemma cut_nonempty s : forall cur, cut s cur <> [].
Proof.
  induction s as [|c t IH]; intros cur; [discriminate|].
  rewrite cut_eq. destruct (is_break c); [discriminate|apply IH].
Qed.

Lemma cut_cur s : forall cur, cut s cur = match cut s [] with y :: r => (cur ++ y) :: r | [] => [] end.
Proof.
  induction s as [|c t IH]; intros cur; [rewrite !cut_nil, app_nil_r; reflexivity|].
  rewrite !cut_eq. destruct (is_break c); [reflexivity|].
  rewrite (IH (cur ++ [c])), (IH ([] ++ [c])).
  destruct (cut t []) as [|y r]; [reflexivity|]. rewrite <- app_assoc. reflexivity.
Qed.

Lemma splitlines_nonempty t : forall cur, t <> [] -> splitlines t cur <> [].
Proof.
  induction t as [|c t IH]; intros cur H; [contradiction|].
  rewrite splitlines_eq. destruct (is_sep c); [discriminate|].
  destruct t as [|x t']; [|apply IH; discriminate].
  rewrite splitlines_nil. destruct cur; discriminate.
Qed.
Lemma merge_nil l : merge l = [] -> l = [].
Proof.
  destruct l as [|x r]; [reflexivity|]. simpl.
  destruct (ends_nlb x); [destruct (merge r); discriminate|discriminate].
Qed.

(* generalised over the partial line `cur`, of which only the last character matters *)
Lemma merge_splitlines_cut s : forall cur, ends_nlb cur = false -> ends_break cur = false ->
  cut s cur = merge (splitlines s cur) ++ trail (cur ++ s).
Proof.
  induction s as [|c t IHt IHr] using break_ind; intros cur N0 B0.
  - rewrite cut_nil, splitlines_nil, app_nil_r.
    destruct cur as [|a cur']; [reflexivity|]. cbn [merge]. rewrite N0. unfold trail. rewrite B0. reflexivity.
  - rewrite cut_eq, splitlines_eq, sep_cases.
    destruct (is_break c) eqn:B; [|destruct (non_line_break c) eqn:NL]; cbn [orb].
    + destruct (take_break_ends c t cur) as [EB EN]. rewrite B in EB. rewrite (break_not_nlb c B) in EN.
      cbn [merge]. rewrite EN, (IHr []) by reflexivity.
      rewrite <- (take_break_app c t), app_assoc, (trail_after_break _ _ EB). reflexivity.
    + rewrite take_break_not13 by (apply orb_false_iff in B as [_ B]; exact B).
      cbn [fst snd merge]. rewrite ends_nlb_app, NL, cut_cur, (IHt []) by reflexivity. cbn [app].
      destruct t as [|x t'].
      * rewrite splitlines_nil. change (trail []) with [[]: str]. cbn [merge app]. rewrite app_nil_r.
        rewrite trail_snoc, B. reflexivity.
      * destruct (merge (splitlines (x :: t') [])) as [|y r] eqn:M.
        -- apply merge_nil in M. apply splitlines_nonempty in M; [contradiction|discriminate].
        -- change (c :: x :: t') with ([c] ++ x :: t'). rewrite app_assoc, trail_app_nonempty by discriminate. reflexivity.
    + rewrite IHt by (rewrite ?ends_nlb_app, ?ends_break_app; assumption).
      rewrite <- app_assoc. reflexivity.
Qed.

Theorem split_keep_spec s : split_keep s = cut s [].
Proof. symmetry. apply (merge_splitlines_cut s []); reflexivity. Qed.

Lemma cut_concat s : forall cur, concat (cut s cur) = cur ++ s.
Proof.
  induction s as [|c t IHt IHr] using break_ind; intros cur; [rewrite cut_nil; reflexivity|].
  rewrite cut_eq. destruct (is_break c).
  - cbn [concat]. rewrite IHr, <- app_assoc, take_break_app. reflexivity.
  - rewrite IHt, <- app_assoc. reflexivity.
Qed.

Theorem split_keep_concat s : concat (split_keep s) = s.
Proof. rewrite split_keep_spec, cut_concat. reflexivity. Qed.
Theorem split_keep_nonempty s : split_keep s <> [].
Proof. rewrite split_keep_spec. apply cut_nonempty. Qed.
Print Assumptions split_keep_spec.
Print Assumptions split_keep_concat.
