From Coq Require Import List Relations.
Import ListNotations.

(* An abstract plan-driven stack engine over rule automata, as parso's generator and parser form one: a stack of
   frames (state, nodes so far); a table `plans` that says, for a state and the label of the next token, which state to
   go to and which states to push; a frame in a final state without a plan for the token is popped into a node of the
   frame below.  Derivations are trees over the automata (dtree, wf).
     complete (the core of C06) : on tables that hold a plan for every terminal arc and every first chain, with a post-fixpoint of FOLLOW
                free of FIRST/FOLLOW conflicts, the word of every well-formed derivation is accepted and leaves one
                frame, in a final state of the root's rule, that holds the collapsed children of the root;
     sound_f (the core of C05) : on tables whose plans all come from a terminal arc or a first chain, every accepting run over a
                non-empty word is the word of a well-formed derivation of the start rule, and the nodes it leaves are
                the collapsed children of that derivation. *)

Section LL.
Variable T : Type.                                   (* parse-tree payload *)
Variables St Lb Rl : Type.                            (* automaton states, terminal labels, rules *)
Variable lb0 : Lb.                                   (* some label: the completeness theorems are stated for an inhabited alphabet *)
Variable mk_node : Rl -> list T -> T.

Variable arcT : St -> Lb -> option St.
Variable arcN : St -> Rl -> option St.
Variable start : Rl -> St.
Variable final : St -> bool.
Variable rule_of : St -> Rl.
Variable plans : St -> Lb -> option (St * list St).
Variable FW : Rl -> Lb -> bool.                    (* a post-fixpoint of FOLLOW *)

Inductive first_chain : Rl -> Lb -> list St -> Prop :=
| fc_t B a s1 : arcT (start B) a = Some s1 -> first_chain B a [s1]
| fc_n B C a s ch : arcN (start B) C = Some s -> first_chain C a ch -> first_chain B a (s :: ch).

Hypothesis plans_complete : forall q a q' ch,
  (ch = [] /\ arcT q a = Some q') \/ (exists B, arcN q B = Some q' /\ first_chain B a ch) ->
  plans q a = Some (q', ch).
Variable validR : Rl -> Prop.                         (* the rules of the grammar *)
Hypothesis rule_start : forall B, validR B -> rule_of (start B) = B.
Hypothesis rule_arcT : forall q a q', arcT q a = Some q' -> rule_of q' = rule_of q.
Hypothesis rule_arcN : forall q B q', arcN q B = Some q' -> rule_of q' = rule_of q.
Hypothesis fw1 : forall q B q' t, arcN q B = Some q' -> plans q' t <> None -> FW B t = true.
Hypothesis fw2 : forall q B q' t, arcN q B = Some q' -> final q' = true -> FW (rule_of q) t = true -> FW B t = true.
Hypothesis noconf : forall q t, final q = true -> FW (rule_of q) t = true -> plans q t = None.

Inductive dtree := DLeaf (a : Lb) (x : T) | DNode (B : Rl) (kids : list dtree).

Fixpoint run (q : St) (ks : list dtree) : option St :=
  match ks with
  | [] => Some q
  | DLeaf a _ :: r => match arcT q a with Some q1 => run q1 r | None => None end
  | DNode B _ :: r => match arcN q B with Some q1 => run q1 r | None => None end
  end.

Fixpoint wf (d : dtree) : Prop :=
  match d with
  | DLeaf _ _ => True
  | DNode B kb =>
      validR B /\ kb <> [] /\ (exists qf, run (start B) kb = Some qf /\ final qf = true) /\
      (fix all (l : list dtree) : Prop := match l with [] => True | k :: r => wf k /\ all r end) kb
  end.
Fixpoint all_wf (l : list dtree) : Prop := match l with [] => True | k :: r => wf k /\ all_wf r end.
Lemma wf_node B kb : wf (DNode B kb) <->
  validR B /\ kb <> [] /\ (exists qf, run (start B) kb = Some qf /\ final qf = true) /\ all_wf kb.
Proof. reflexivity. Qed.

Fixpoint yield (d : dtree) : list (Lb * T) :=
  match d with
  | DLeaf a x => [(a, x)]
  | DNode _ kb => flat_map yield kb
  end.
Definition yields (ks : list dtree) := flat_map yield ks.

Fixpoint collapse (d : dtree) : T :=
  match d with
  | DLeaf _ x => x
  | DNode B kb => match kb with [k] => collapse k | _ => mk_node B (map collapse kb) end
  end.

Fixpoint dsize (d : dtree) : nat :=
  match d with DLeaf _ _ => 1 | DNode _ kb => S (fold_right (fun k n => dsize k + n) 0 kb) end.
Definition lsize (ks : list dtree) : nat := fold_right (fun k n => dsize k + n) 0 ks.

Definition frame := (St * list T)%type.
Definition close (q : St) (ns : list T) : T := match ns with [x] => x | _ => mk_node (rule_of q) ns end.

Inductive pop1 (a : Lb) : list frame -> list frame -> Prop :=
| pop1_intro q ns q2 ns2 rest :
    plans q a = None -> final q = true ->
    pop1 a ((q, ns) :: (q2, ns2) :: rest) ((q2, ns2 ++ [close q ns]) :: rest).
Definition pops (a : Lb) := clos_refl_trans_1n _ (pop1 a).

Fixpoint push (ch : list St) (x : T) (base : list frame) : list frame :=
  match ch with
  | [] => match base with (q, ns) :: r => (q, ns ++ [x]) :: r | [] => [] end
  | s :: ch' => push ch' x ((s, []) :: base)
  end.
Definition shift (a : Lb) (x : T) (st : list frame) : option (list frame) :=
  match st with
  | (q, ns) :: rest => match plans q a with Some (q', ch) => Some (push ch x ((q', ns) :: rest)) | None => None end
  | [] => None
  end.
Inductive step : Lb * T -> list frame -> list frame -> Prop :=
| step_intro a x st st1 st2 : pops a st st1 -> shift a x st1 = Some st2 -> step (a, x) st st2.
Inductive feed : list (Lb * T) -> list frame -> list frame -> Prop :=
| feed_nil st : feed [] st st
| feed_cons tk w st st1 st2 : step tk st st1 -> feed w st1 st2 -> feed (tk :: w) st st2.

Definition passes (w : list (Lb * T)) (st : list frame) (t : Lb) (c : list frame) : Prop :=
  exists st', feed w st st' /\ pops t st' c.

Lemma pops_trans a x y z : pops a x y -> pops a y z -> pops a x z.
Proof. intros H1 H2. induction H1; [exact H2|]. econstructor; [eassumption|]. apply IHclos_refl_trans_1n. exact H2. Qed.
Lemma feed_app w1 w2 st st1 st2 : feed w1 st st1 -> feed w2 st1 st2 -> feed (w1 ++ w2) st st2.
Proof. intros H1 H2. induction H1; simpl; [exact H2|]. econstructor; [eassumption|]. apply IHfeed. exact H2. Qed.

Definition head_label (w : list (Lb * T)) (t : Lb) : Lb := match w with (a, _) :: _ => a | [] => t end.

Lemma passes_refl st t : passes [] st t st.
Proof. exists st. split; [constructor|apply rt1n_refl]. Qed.

Lemma passes_chain w1 w2 st t c1 c2 :
  passes w1 st (head_label w2 t) c1 -> passes w2 c1 t c2 -> passes (w1 ++ w2) st t c2.
Proof.
  intros (s1 & F1 & P1) (s2 & F2 & P2). destruct w2 as [|[a x] w2']; simpl in *.
  - inversion F2; subst. rewrite app_nil_r. exists s1. split; [exact F1|]. eapply pops_trans; eassumption.
  - inversion F2 as [|tk w st0 st1' st2' S F2']; subst.
    inversion S as [a0 x0 st0 stA stB PA SH]; subst.
    exists s2. split; [|exact P2].
    eapply feed_app; [exact F1|]. econstructor; [|exact F2'].
    econstructor; [|exact SH]. eapply pops_trans; eassumption.
Qed.

Lemma passes_step a x q ns rest q' ch w t c :
  plans q a = Some (q', ch) ->
  passes w (push ch x ((q', ns) :: rest)) t c -> passes ((a, x) :: w) ((q, ns) :: rest) t c.
Proof.
  intros Hp (s' & F & P). exists s'. split; [|exact P].
  econstructor; [|exact F]. econstructor; [apply rt1n_refl|]. simpl. rewrite Hp. reflexivity.
Qed.

Lemma passes_pop w st t q ns q2 ns2 rest :
  passes w st t ((q, ns) :: (q2, ns2) :: rest) -> plans q t = None -> final q = true ->
  passes w st t ((q2, ns2 ++ [close q ns]) :: rest).
Proof.
  intros (s' & F & P) HP HF. exists s'. split; [exact F|].
  eapply pops_trans; [exact P|]. econstructor; [|apply rt1n_refl]. constructor; assumption.
Qed.

Definition arc (q : St) (k : dtree) : option St :=
  match k with DLeaf a _ => arcT q a | DNode B _ => arcN q B end.

Lemma run_cons q k r : run q (k :: r) = match arc q k with Some q1 => run q1 r | None => None end.
Proof. destruct k; reflexivity. Qed.
Lemma run_app : forall ks r q, run q (ks ++ r) = match run q ks with Some q1 => run q1 r | None => None end.
Proof.
  induction ks as [|k ks IH]; intros r q; [reflexivity|].
  rewrite <- app_comm_cons, !run_cons. destruct (arc q k); [apply IH|reflexivity].
Qed.

Lemma arc_rule q k q' : arc q k = Some q' -> rule_of q' = rule_of q.
Proof. destruct k; [apply rule_arcT|apply rule_arcN]. Qed.
Lemma run_rule : forall ks q q', run q ks = Some q' -> rule_of q' = rule_of q.
Proof.
  induction ks as [|k r IH]; intros q q' H; [inversion H; reflexivity|].
  rewrite run_cons in H. destruct (arc q k) as [q1|] eqn:E; [|discriminate].
  rewrite (IH _ _ H). exact (arc_rule _ _ _ E).
Qed.
Lemma start_rule B ks q : validR B -> run (start B) ks = Some q -> rule_of q = B.
Proof. intros V R. rewrite (run_rule _ _ _ R). apply rule_start. exact V. Qed.

Lemma all_wf_app a b : all_wf (a ++ b) <-> all_wf a /\ all_wf b.
Proof.
  induction a as [|x a IH]; simpl; [split; [intros H; exact (conj I H)|intros [_ H]; exact H]|].
  rewrite IH. symmetry. apply and_assoc.
Qed.
Lemma yields_cons k ks : yields (k :: ks) = yield k ++ yields ks.
Proof. reflexivity. Qed.
Lemma yields_snoc ks k : yields (ks ++ [k]) = yields ks ++ yield k.
Proof. unfold yields. rewrite flat_map_app. simpl. rewrite app_nil_r. reflexivity. Qed.

Lemma wf_kids B kb : wf (DNode B kb) ->
  exists k ks s1 qf, kb = k :: ks /\ wf k /\ all_wf ks /\
    arc (start B) k = Some s1 /\ run s1 ks = Some qf /\ final qf = true /\ rule_of qf = B.
Proof.
  intros W. apply wf_node in W as (VB & NE & (qf & R & F) & AW).
  destruct kb as [|k ks]; [contradiction|]. destruct AW as [Wk AW].
  pose proof (start_rule _ _ _ VB R) as RB. rewrite run_cons in R.
  destruct (arc (start B) k) as [s1|] eqn:E; [|discriminate]. exists k, ks, s1, qf. auto 10.
Qed.

Lemma close_collapse qf B kb : rule_of qf = B -> kb <> [] -> close qf (map collapse kb) = collapse (DNode B kb).
Proof.
  intros HR NE. destruct kb as [|k1 [|k2 r]]; [contradiction|reflexivity|]. simpl. rewrite HR. reflexivity.
Qed.

(* the stack once the first token of node d has been shifted on top of R: one frame for each node on the left spine
   of d, each in the state behind its first child, the innermost holding the leaf *)
Fixpoint entered (d : dtree) (R : list frame) : list frame :=
  match d with
  | DLeaf _ _ => R
  | DNode B kb =>
    match kb with
    | k :: _ => match k with
                | DLeaf a x => match arcT (start B) a with Some s1 => (s1, [x]) :: R | None => R end
                | DNode C _ => match arcN (start B) C with Some s1 => entered k ((s1, []) :: R) | None => R end
                end
    | [] => R
    end
  end.

(* the stack once the first token of child k has been shifted, k's arc leading into q1 *)
Definition landed (k : dtree) (q1 : St) (ns : list T) (R : list frame) : list frame :=
  match k with DLeaf _ x => (q1, ns ++ [x]) :: R | DNode _ _ => entered k ((q1, ns) :: R) end.

Lemma entered_node B k ks s1 R : arc (start B) k = Some s1 -> entered (DNode B (k :: ks)) R = landed k s1 [] R.
Proof. destruct k; simpl; intros ->; reflexivity. Qed.

Lemma push_app ch1 ch2 x base : push (ch1 ++ ch2) x base = push ch2 x (fold_left (fun b s => (s, []) :: b) ch1 base).
Proof. revert base; induction ch1 as [|s ch IH]; intros base; simpl; [reflexivity|apply IH]. Qed.

Lemma dtree_kids_ind (P : dtree -> Prop) :
  (forall a x, P (DLeaf a x)) -> (forall B kb, (forall k, In k kb -> P k) -> P (DNode B kb)) -> forall d, P d.
Proof.
  intros HL HN. fix IH 1. intros [a x|B kb]; [apply HL|apply HN].
  induction kb as [|k kb IHkb]; intros k' H; [destruct H|destruct H as [<-|H]; [apply IH|apply IHkb; exact H]].
Qed.

(* down the left spine, each node contributes the state after its first child to the chain *)
Lemma first_shift : forall k q q1, wf k -> arc q k = Some q1 ->
  exists a x ch, yield k = (a, x) :: tl (yield k) /\
    ((ch = [] /\ arcT q a = Some q1) \/ (exists B, arcN q B = Some q1 /\ first_chain B a ch)) /\
    forall ns R, push ch x ((q1, ns) :: R) = landed k q1 ns R.
Proof.
  induction k as [a x|B kb IH] using dtree_kids_ind; intros q q1 W A.
  - exists a, x, []. split; [reflexivity|split; [left; split; [reflexivity|exact A]|reflexivity]].
  - destruct (wf_kids _ _ W) as (k & ks & s1 & qf & -> & Wk & _ & E & _).
    destruct (IH k (or_introl eq_refl) (start B) s1 Wk E) as (a & x & ch & Y & P & L).
    exists a, x, (s1 :: ch). split; [|split].
    + change (yield (DNode B (k :: ks))) with (yield k ++ yields ks). rewrite Y. reflexivity.
    + right. exists B. split; [exact A|].
      destruct P as [[-> AT]|(C & AN & FC)]; [apply fc_t; exact AT|eapply fc_n; eassumption].
    + intros ns R. simpl push. rewrite L. symmetry. exact (entered_node _ _ _ _ _ E).
Qed.

Definition after (q : St) (t : Lb) : Prop := plans q t <> None \/ (final q = true /\ FW (rule_of q) t = true).

Lemma after_run ks q q' t : run q ks = Some q' -> all_wf ks -> after q' t -> after q (head_label (yields ks) t).
Proof.
  destruct ks as [|k r]; intros R AW A; [inversion R; subst; exact A|].
  rewrite run_cons in R. destruct (arc q k) as [q1|] eqn:E; [|discriminate].
  destruct (first_shift k q q1 (proj1 AW) E) as (a & x & ch & Y & P & _).
  left. rewrite yields_cons, Y. simpl. rewrite (plans_complete _ _ _ _ P). discriminate.
Qed.
Lemma fw_after q B q1 t : arcN q B = Some q1 -> after q1 t -> FW B t = true.
Proof.
  intros E [A|[A1 A2]]; [eapply fw1; eassumption|].
  eapply fw2; [exact E|exact A1|]. rewrite <- (rule_arcN _ _ _ E). exact A2.
Qed.

(* P_rest ks: a frame in state q with the children ks still to come takes their words and ends with their collapsed
   trees appended.  P_entry d: once the node d has been entered on top of a frame, the rest of its word leaves
   collapse d as one more node of that frame. *)
Definition P_rest (ks : list dtree) : Prop :=
  forall q q' ns R t, run q ks = Some q' -> all_wf ks -> after q' t ->
    passes (yields ks) ((q, ns) :: R) t ((q', ns ++ map collapse ks) :: R).
Definition P_entry (d : dtree) : Prop :=
  forall B kb q1 ns S t, d = DNode B kb -> wf d -> FW B t = true ->
    passes (tl (yield d)) (entered d ((q1, ns) :: S)) t ((q1, ns ++ [collapse d]) :: S).

Lemma landed_passes k q q1 ns R t : arc q k = Some q1 -> wf k -> after q1 t -> P_entry k ->
  passes (tl (yield k)) (landed k q1 ns R) t ((q1, ns ++ [collapse k]) :: R).
Proof.
  intros E W A PE. destruct k as [a x|B kb]; [apply passes_refl|].
  exact (PE B kb q1 ns R t eq_refl W (fw_after _ _ _ _ E A)).
Qed.

Lemma landed_rest k ks q q1 q' ns R t :
  arc q k = Some q1 -> run q1 ks = Some q' -> wf k -> all_wf ks -> after q' t -> P_entry k -> P_rest ks ->
  passes (tl (yield k) ++ yields ks) (landed k q1 ns R) t ((q', ns ++ map collapse (k :: ks)) :: R).
Proof.
  intros E Rn Wk AW A PE PR.
  change (ns ++ map collapse (k :: ks)) with (ns ++ [collapse k] ++ map collapse ks). rewrite app_assoc.
  eapply passes_chain; [|exact (PR q1 q' _ R t Rn AW A)].
  exact (landed_passes k q q1 ns R _ E Wk (after_run _ _ _ _ Rn AW A) PE).
Qed.

Lemma rest_of_entries ks : (forall k, In k ks -> P_entry k) -> P_rest ks.
Proof.
  induction ks as [|k ks IH]; intros PE q q' ns R t Rn AW A.
  - inversion Rn; subst q'. simpl. rewrite app_nil_r. apply passes_refl.
  - destruct AW as [Wk AW]. rewrite run_cons in Rn. destruct (arc q k) as [q1|] eqn:E; [|discriminate].
    destruct (first_shift k _ _ Wk E) as (a & x & ch & Y & P & L).
    rewrite yields_cons, Y. apply passes_step with (q' := q1) (ch := ch); [apply plans_complete; exact P|].
    rewrite L. exact (landed_rest k ks q q1 q' ns R t E Rn Wk AW A (PE k (or_introl eq_refl))
                        (IH (fun k' H => PE k' (or_intror H)))).
Qed.

Theorem entry_all : forall d, P_entry d.
Proof.
  induction d as [a x|B0 kb0 IH] using dtree_kids_ind; intros B kb q1 ns S t Ed W HFW; [discriminate|].
  injection Ed as <- <-.
  destruct (wf_kids _ _ W) as (k & ks & s1 & qf & -> & Wk & AW & E & Rn & Fq & RB).
  destruct (first_shift k _ _ Wk E) as (a & x & ch & Y & _).
  replace (tl (yield (DNode B0 (k :: ks)))) with (tl (yield k) ++ yields ks)
    by (change (yield (DNode B0 (k :: ks))) with (yield k ++ yields ks); rewrite Y; reflexivity).
  rewrite (entered_node _ _ ks _ _ E), <- (close_collapse qf B0 (k :: ks) RB) by discriminate.
  rewrite <- RB in HFW.
  apply passes_pop; [|apply noconf; assumption|exact Fq].
  exact (landed_rest k ks _ s1 qf [] _ t E Rn Wk AW (or_intror (conj Fq HFW)) (IH k (or_introl eq_refl))
           (rest_of_entries ks (fun k' H => IH k' (or_intror H)))).
Qed.
Theorem rest_all ks : P_rest ks.
Proof. apply rest_of_entries. intros k _. apply entry_all. Qed.

Lemma main : forall n,
  (forall d, dsize d < n -> P_entry d) /\ (forall ks, lsize ks < n -> P_rest ks).
Proof using lb0 plans_complete rule_start rule_arcT rule_arcN fw1 fw2 noconf.
  intros n. split; [intros d _; apply entry_all|intros ks _; apply rest_all].
Qed.

Theorem complete F kb t :
  wf (DNode F kb) -> FW F t = true ->
  exists qf, final qf = true /\ rule_of qf = F /\
    passes (yield (DNode F kb)) [(start F, [])] t [(qf, map collapse kb)].
Proof using lb0 plans_complete rule_start rule_arcT rule_arcN fw1 fw2 noconf.
  intros W HF. apply wf_node in W as (VB & _ & (qf & Rn & Fq) & AW).
  pose proof (start_rule _ _ _ VB Rn) as RQ. rewrite <- RQ in HF.
  exists qf. split; [exact Fq|split; [exact RQ|]].
  exact (rest_all kb (start F) qf [] [] t Rn AW (or_intror (conj Fq HF))).
Qed.

Hypothesis plans_sound : forall q a q' ch, plans q a = Some (q', ch) ->
  (ch = [] /\ arcT q a = Some q') \/ (exists B, arcN q B = Some q' /\ first_chain B a ch).
Hypothesis arcN_valid : forall q B q', arcN q B = Some q' -> validR B.

Definition dframe := (St * list dtree)%type.
Definition erase (st : list dframe) : list frame := map (fun f => (fst f, map collapse (snd f))) st.
Fixpoint yields_st (st : list dframe) : list (Lb * T) :=
  match st with [] => [] | f :: rest => yields_st rest ++ yields (snd f) end.

Section Sound.
Variable S0 : Rl.
Hypothesis S0_valid : validR S0.

(* pend = the rule of the frame directly above: its nonterminal arc has already been taken in this frame's state *)
Definition ahead (pend : option Rl) (q0 q : St) : Prop :=
  match pend with None => q0 = q | Some B => arcN q0 B = Some q end.
Definition frame_ok (pend : option Rl) (R : Rl) (q : St) (ks : list dtree) : Prop :=
  all_wf ks /\ exists q0, run (start R) ks = Some q0 /\ ahead pend q0 q.
(* Only the frame on top can be waiting for nothing, and above the bottom it then has a child already:
   frames are created by a shift that gives them one. *)
Inductive ok : option Rl -> list dframe -> Prop :=
| ok_bottom pend q ks : frame_ok pend S0 q ks -> ok pend [(q, ks)]
| ok_frame pend R q ks rest : validR R -> frame_ok pend R q ks -> (pend = None -> ks <> []) ->
    ok (Some R) rest -> ok pend ((q, ks) :: rest).

Lemma ok_top p p' q ks q' ks' rest :
  ok p ((q, ks) :: rest) -> (forall R, frame_ok p R q ks -> frame_ok p' R q' ks') ->
  (p' = None -> ks' <> []) -> ok p' ((q', ks') :: rest).
Proof.
  intros O F N. inversion O; subst; [apply ok_bottom; apply F; assumption|].
  apply ok_frame with R; auto.
Qed.

Lemma frame_closes R q ks : validR R -> frame_ok None R q ks -> final q = true -> ks <> [] ->
  wf (DNode R ks) /\ rule_of q = R.
Proof.
  intros V (AW & q0 & Rn & ->) F NE. split; [|exact (start_rule _ _ _ V Rn)].
  apply wf_node. split; [exact V|split; [exact NE|split; [exists q; split; assumption|exact AW]]].
Qed.

(* fr is what the engine sees of a stack of partial derivations whose yields make up w *)
Definition tracks (fr : list frame) (w : list (Lb * T)) : Prop :=
  exists st, fr = erase st /\ ok None st /\ yields_st st = w.

(* the top frame takes the child k it was waiting for (a node) or moves along a terminal arc (a leaf) *)
Lemma tracks_snoc p q ks rest k q' :
  ok p ((q, ks) :: rest) -> wf k ->
  (forall q0, ahead p q0 q -> arc q0 k = Some q') ->
  tracks ((q', map collapse ks ++ [collapse k]) :: erase rest) (yields_st ((q, ks) :: rest) ++ yield k).
Proof.
  intros O W A. exists ((q', ks ++ [k]) :: rest). split; [|split].
  - simpl. rewrite map_app. reflexivity.
  - apply (ok_top _ _ _ _ _ _ _ O); [|intros _ E; apply app_eq_nil in E as [_ E]; discriminate].
    intros R (AW & q0 & Rn & P). split; [apply all_wf_app; exact (conj AW (conj W I))|].
    exists q'. split; [|reflexivity]. rewrite run_app, Rn, run_cons, (A q0 P). reflexivity.
  - simpl. rewrite yields_snoc, app_assoc. reflexivity.
Qed.

(* popping without looking at the next token (what `finish` does at the end of the input) *)
Inductive popf1 : list frame -> list frame -> Prop :=
| popf1_intro q ns q2 ns2 rest : final q = true -> popf1 ((q, ns) :: (q2, ns2) :: rest) ((q2, ns2 ++ [close q ns]) :: rest).
Definition popsf := clos_refl_trans_1n _ popf1.
Lemma pops_popsf a x y : pops a x y -> popsf x y.
Proof.
  intros P. induction P as [x|x y z P1 _ IH]; [apply rt1n_refl|]. econstructor; [|exact IH].
  inversion P1; subst. constructor. assumption.
Qed.

Lemma pop1_sound fr fr' w : tracks fr w -> popf1 fr fr' -> tracks fr' w.
Proof.
  intros (st & -> & O & <-) P. destruct st as [|[q ks] [|[q2 ks2] rest]]; inversion P as [? ? ? ? ? HF]; subst.
  inversion O as [|? R ? ? ? VR FO NE O2]; subst.
  destruct (frame_closes _ _ _ VR FO HF (NE eq_refl)) as [W RQ].
  rewrite (close_collapse q R ks RQ (NE eq_refl)).
  exact (tracks_snoc _ _ _ _ (DNode R ks) q2 O2 W (fun q0 A => A)).
Qed.
Lemma popsf_sound fr fr' w : tracks fr w -> popsf fr fr' -> tracks fr' w.
Proof. intros H P. induction P as [x|x y z P1 _ IH]; [exact H|]. apply IH. exact (pop1_sound _ _ _ H P1). Qed.

Lemma push_chain_sound : forall B a ch, first_chain B a ch -> forall x base, validR B -> ok (Some B) base ->
  tracks (push ch x (erase base)) (yields_st base ++ [(a, x)]).
Proof.
  induction 1 as [B a s1 AT|B C a s ch AN FC IH]; intros x base VB O.
  - exists ((s1, [DLeaf a x]) :: base). split; [reflexivity|split; [|reflexivity]].
    apply ok_frame with B; [exact VB| |discriminate|exact O].
    split; [exact (conj I I)|]. exists s1. split; [|reflexivity]. simpl. rewrite AT. reflexivity.
  - rewrite <- (app_nil_r (yields_st base)). apply (IH x ((s, []) :: base) (arcN_valid _ _ _ AN)).
    apply ok_frame with B; [exact VB| |discriminate|exact O].
    split; [exact I|]. exists (start B). split; [reflexivity|exact AN].
Qed.

Lemma shift_sound a x fr fr' w : tracks fr w -> shift a x fr = Some fr' -> tracks fr' (w ++ [(a, x)]).
Proof.
  intros (st & -> & O & <-) SH. destruct st as [|[q ks] rest]; [discriminate|]. simpl in SH.
  destruct (plans q a) as [[q' ch]|] eqn:PL; [|discriminate]. inversion SH; subst fr'; clear SH.
  destruct (plans_sound _ _ _ _ PL) as [[-> AT]|(B & AN & FC)].
  - apply (tracks_snoc _ _ _ _ (DLeaf a x) q' O I). intros q0 ->. exact AT.
  - apply (push_chain_sound _ _ _ FC x ((q', ks) :: rest) (arcN_valid _ _ _ AN)).
    apply (ok_top _ _ _ _ _ _ _ O); [|discriminate].
    intros R (AW & q0 & Rn & ->). split; [exact AW|]. exists q. split; [exact Rn|exact AN].
Qed.

Lemma feed_sound w' fr fr' : feed w' fr fr' -> forall w, tracks fr w -> tracks fr' (w ++ w').
Proof.
  induction 1 as [st|tk w' st st1 st2 ST _ IH]; intros w H; [rewrite app_nil_r; exact H|].
  inversion ST as [a x ? st' ? P SH]; subst.
  change ((a, x) :: w') with ([(a, x)] ++ w'). rewrite app_assoc. apply IH.
  exact (shift_sound _ _ _ _ _ (popsf_sound _ _ _ H (pops_popsf _ _ _ P)) SH).
Qed.

Theorem sound_f w fr qf ns :
  feed w [(start S0, [])] fr -> popsf fr [(qf, ns)] -> final qf = true -> w <> [] ->
  exists kb, wf (DNode S0 kb) /\ yield (DNode S0 kb) = w /\ ns = map collapse kb /\ rule_of qf = S0.
Proof.
  intros F P FQ NE.
  assert (T0: tracks [(start S0, [])] []).
  { exists [(start S0, [])]. split; [reflexivity|split; [|reflexivity]].
    apply ok_bottom. split; [exact I|]. exists (start S0). split; reflexivity. }
  destruct (popsf_sound _ _ _ (feed_sound _ _ _ F _ T0) P) as (st & E & O & Y).
  destruct st as [|[q kb] [|f2 r]]; try discriminate. inversion E; subst qf ns.
  inversion O as [? ? ? FO|? ? ? ? ? _ _ _ O2]; [subst|inversion O2].
  destruct (frame_closes _ _ _ S0_valid FO FQ) as [W RQ]; [intros ->; apply NE; symmetry; exact Y|].
  exists kb. split; [exact W|split; [exact Y|split; [reflexivity|exact RQ]]].
Qed.
Theorem sound w t qf ns :
  passes w [(start S0, [])] t [(qf, ns)] -> final qf = true -> w <> [] ->
  exists kb, wf (DNode S0 kb) /\ yield (DNode S0 kb) = w /\ ns = map collapse kb /\ rule_of qf = S0.
Proof. intros (fr & F & P) FQ NE. eapply sound_f; [exact F|eapply pops_popsf; exact P|exact FQ|exact NE]. Qed.
End Sound.

End LL.
Print Assumptions complete.
Print Assumptions sound.
