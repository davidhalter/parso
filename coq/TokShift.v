From Coq Require Import List NArith ZArith Bool.
Import ListNotations.
Require Import Tok TokSpec.
Open Scope N_scope.

(* C04 / C03, locality of the tokenizer in the line number: tokenizing the same lines with the start line moved by k gives
   the same tokens with every line number moved by k (this is what lets the incremental parser re-tokenize a slice of a
   file from its own line number, and copy unchanged nodes by adding a line offset).
   The line number never influences control flow: it is only stamped on tokens and remembered for multi-line strings. *)

Definition shP (k : N) (p : N * N) : N * N := (fst p + k, snd p).
Definition shT (k : N) (t : Token) : Token := mkTok (ty t) (ts t) (tline t + k) (tcol t) (tpre t).

(* The model threads errors by `match r with Ok a => f a | Err e => Err e end`; RR_bind is the rule for that shape, so
   the lemma of a function is put together from the lemmas of the functions it calls. *)
Definition RR {A} (P : A -> A -> Prop) (r r' : result A) : Prop :=
  match r, r' with Ok a, Ok a' => P a a' | Err e, Err e' => e' = e | _, _ => False end.
Definition RP {A B} (P : A -> A -> Prop) (Q : B -> B -> Prop) (x x' : A * B) : Prop :=
  let '(a, b) := x in let '(a', b') := x' in P a a' /\ Q b b'.

Lemma RR_bind {A B} (P : A -> A -> Prop) (Q : B -> B -> Prop) r r' (f f' : A -> result B) :
  RR P r r' -> (forall a a', r = Ok a -> r' = Ok a' -> P a a' -> RR Q (f a) (f' a')) ->
  RR Q (match r with Ok a => f a | Err e => Err e end) (match r' with Ok a => f' a | Err e => Err e end).
Proof. destruct r, r'; try contradiction; [intros H G; apply G; trivial|exact (fun H _ => H)]. Qed.
Lemma RR_map {A} (g : A -> A) r r' :
  RR (fun a a' => g a = a') r r' -> r' = match r with Ok a => Ok (g a) | Err e => Err e end.
Proof. destruct r, r'; try contradiction; intros <-; reflexivity. Qed.

(* Both runs take the same branch at every test.  Case analysis through these lemmas leaves the other branches out of
   the goal, which matters on the long function bodies. *)
Lemma RR_if_eq {A} (P : A -> A -> Prop) (b b' : bool) x y x' y' :
  b = b' -> RR P x x' -> RR P y y' -> RR P (if b then x else y) (if b' then x' else y').
Proof. intros <-. destruct b; trivial. Qed.
Lemma RR_if {A} (P : A -> A -> Prop) (b : bool) x y x' y' :
  RR P x x' -> RR P y y' -> RR P (if b then x else y) (if b then x' else y').
Proof. apply RR_if_eq. reflexivity. Qed.
Lemma RR_opt {A X} (P : A -> A -> Prop) (o : option X) f g f' g' :
  (forall x, RR P (f x) (f' x)) -> RR P g g' ->
  RR P (match o with Some x => f x | None => g end) (match o with Some x => f' x | None => g' end).
Proof. destruct o; trivial. Qed.
Lemma RR_same {A B} (Q : B -> B -> Prop) (r r' : result A) f f' :
  r = r' -> (forall a, RR Q (f a) (f' a)) ->
  RR Q (match r with Ok a => f a | Err e => Err e end) (match r' with Ok a => f' a | Err e => Err e end).
Proof. intros <-. destruct r; [trivial|reflexivity]. Qed.

(* A field that is dead - start, end pattern and prefix of a continued string while none is continued, the text start
   of an f-string node without pending text - is left unconstrained: a fresh position is (0, 0) in both runs, not k apart.
   Both relations are stated on constructor forms: destructing a hypothesis makes every projection compute and the two
   runs syntactically parallel.  RS is indexed by the line ln the first run is at, so the simulation also records how the
   line counter moves. *)
Inductive RF (k : N) : fnode -> fnode -> Prop :=
  RF_mk q p pl ls ls' sc : (pl <> [] -> ls' = shP k ls) -> RF k (mkF q p pl ls sc) (mkF q p pl ls' sc).
Inductive RS (k ln : N) : st -> st -> Prop :=
  RS_mk p i c cs cs' ep ep' nl px px' ap fs fs' mx :
    Forall2 (RF k) fs fs' -> (c <> [] -> cs' = shP k cs) -> (c <> [] -> ep' = ep) -> (c <> [] -> px' = px) ->
    RS k ln (mkSt p i c cs ep nl px ap fs ln mx) (mkSt p i c cs' ep' nl px' ap fs' (ln + k) mx).

Lemma RS_at k ln ln' p i c cs cs' ep ep' nl px px' ap fs fs' mx :
  ln' = ln + k -> Forall2 (RF k) fs fs' -> (c <> [] -> cs' = shP k cs) -> (c <> [] -> ep' = ep) -> (c <> [] -> px' = px) ->
  RS k ln (mkSt p i c cs ep nl px ap fs ln mx) (mkSt p i c cs' ep' nl px' ap fs' ln' mx).
Proof. intros ->. apply RS_mk. Qed.
Lemma RS_lnum k ln s s' : RS k ln s s' -> lnum s = ln.
Proof. destruct 1; reflexivity. Qed.

Notation R2 k ln := (RR (RP (RS k ln) (fun t t' => map (shT k) t = t'))).
Notation R3 k ln := (RR (RP (RP (RS k ln) (fun t t' => map (shT k) t = t')) (@eq loop_end))).
Notation R4 k ln := (RR (RP (RP (RP (RS k ln) (fun t t' => map (shT k) t = t')) (@eq (option loop_end))) (@eq N))).

Lemma F2_last {A B X Y} (R : A -> B -> Prop) (G : X -> Y -> Prop) l l' f g f' g' :
  Forall2 R l l' -> (forall x y, R x y -> G (f x) (f' y)) -> G g g' ->
  G (match last_opt l with Some x => f x | None => g end) (match last_opt l' with Some y => f' y | None => g' end).
Proof. intros F H H0. induction F as [|x y l l' Hxy F IH]; [exact H0|]. destruct F; [apply H, Hxy|exact IH]. Qed.
Lemma F2_removelast {A B} (R : A -> B -> Prop) l l' : Forall2 R l l' -> Forall2 R (removelast l) (removelast l').
Proof.
  induction 1 as [|x y l l' H F IH]; [constructor|]. destruct F as [|x2 y2 l2 l2' H2 F2]; [constructor|]. simpl. constructor; [exact H|exact IH].
Qed.
Lemma F2_set_last {A B} (R : A -> B -> Prop) l l' x y : Forall2 R l l' -> R x y -> Forall2 R (set_last l x) (set_last l' y).
Proof. intros F H. apply Forall2_app; [apply F2_removelast; exact F|constructor; [exact H|constructor]]. Qed.

Section Shift.
Variable C : coll.
Variable isident : str -> bool.
Variable isspace : N -> bool.
Variable k : N.

Notation RFk := (RF k).
Notation RSk := (RS k).

Ltac fields := cbn [paren indents contstr contstr_start endprog new_line prefix addp fstack lnum max_
                    quote parens prev_lines last_start spec_count fst snd].

Lemma R2_ok ln s s' t t' : RSk ln s s' -> map (shT k) t = t' -> R2 k ln (Ok (s, t)) (Ok (s', t')).
Proof. intros R E. exact (conj R E). Qed.
Lemma R3_ok ln s s' t t' le : RSk ln s s' -> map (shT k) t = t' -> R3 k ln (Ok (s, t, le)) (Ok (s', t', le)).
Proof. intros R E. exact (conj (conj R E) eq_refl). Qed.
Lemma R4_ok ln s s' t t' oe p : RSk ln s s' -> map (shT k) t = t' -> R4 k ln (Ok (s, t, oe, p)) (Ok (s', t', oe, p)).
Proof. intros R E. exact (conj (conj (conj R E) eq_refl) eq_refl). Qed.

(* RR_bind at the three result types, with the equal components already identified: the continuation is entered
   without case analysis or rewriting in what is left of the caller. *)
Lemma R2_bind {B} (Q : B -> B -> Prop) ln r r' (f f' : _ -> result B) :
  R2 k ln r r' -> (forall s s' t, RSk ln s s' -> RR Q (f (s, t)) (f' (s', map (shT k) t))) ->
  RR Q (match r with Ok a => f a | Err e => Err e end) (match r' with Ok a => f' a | Err e => Err e end).
Proof. intros H G. apply (RR_bind _ _ _ _ _ _ H). intros [s t] [s' t'] _ _ [R <-]. apply G, R. Qed.
Lemma R3_bind {B} (Q : B -> B -> Prop) ln r r' (f f' : _ -> result B) :
  R3 k ln r r' -> (forall s s' t le, RSk ln s s' -> RR Q (f (s, t, le)) (f' (s', map (shT k) t, le))) ->
  RR Q (match r with Ok a => f a | Err e => Err e end) (match r' with Ok a => f' a | Err e => Err e end).
Proof. intros H G. apply (RR_bind _ _ _ _ _ _ H). intros [[s t] le] [[s' t'] le'] _ _ [[R <-] <-]. apply G, R. Qed.
Lemma R4_bind {B} (Q : B -> B -> Prop) ln r r' (f f' : _ -> result B) :
  R4 k ln r r' -> (forall s s' t oe p, RSk ln s s' -> RR Q (f (s, t, oe, p)) (f' (s', map (shT k) t, oe, p))) ->
  RR Q (match r with Ok a => f a | Err e => Err e end) (match r' with Ok a => f' a | Err e => Err e end).
Proof. intros H G. apply (RR_bind _ _ _ _ _ _ H). intros [[[s t] oe] p] [[[s' t'] oe'] p'] _ _ [[[R <-] <-] <-]. apply G, R. Qed.

Lemma trunc_shift : forall fs fs' x, Forall2 RFk fs fs' -> trunc_by_quotes C fs x = trunc_by_quotes C fs' x.
Proof.
  intros fs fs' x F. revert x. induction F as [|f f' l l' H F IH]; intros x; [reflexivity|]. destruct H. simpl.
  destruct (endpat C q); [|reflexivity]. destruct (rmatch_at r x 0) as [[e cs]|]; apply IH.
Qed.
Lemma sll_shift : forall fs fs' line pos cur, Forall2 RFk fs fs' -> string_line_len C fs line pos cur = string_line_len C fs' line pos cur.
Proof.
  intros fs fs' line pos cur F. revert cur. induction F as [|f f' l l' H F IH]; intros cur; [reflexivity|]. destruct H. simpl.
  destruct (endpat C q); [|reflexivity]. destruct (rmatch_at r line pos) as [[e cs]|]; apply IH.
Qed.
Lemma no_pending_shift fs fs' : Forall2 RFk fs fs' -> no_pending fs = no_pending fs'.
Proof. induction 1 as [|f f' l l' H F IH]; [reflexivity|]. destruct H. simpl. rewrite IH. reflexivity. Qed.
Lemma existsb_multi_shift fs fs' : Forall2 RFk fs fs' ->
  existsb (fun f => negb (allow_multiline f)) fs = existsb (fun f => negb (allow_multiline f)) fs'.
Proof. induction 1 as [|f f' l l' H F IH]; [reflexivity|]. destruct H. simpl. rewrite IH. reflexivity. Qed.
Lemma F2_nil fs fs' : Forall2 RFk fs fs' -> (match fs with [] => true | _ => false end) = (match fs' with [] => true | _ => false end).
Proof. destruct 1; reflexivity. Qed.

Lemma dedent_loop_shift : forall fuel start ln l c inds acc,
  dedent_loop fuel start (ln + k) (l + k, c) inds (map (shT k) acc) =
  match dedent_loop fuel start ln (l, c) inds acc with Ok (i, t) => Ok (i, map (shT k) t) | Err e => Err e end.
Proof.
  induction fuel as [|f IH]; intros start ln l c inds acc; [reflexivity|]. simpl.
  destruct (last_opt inds) as [top|]; [|reflexivity].
  destruct (start <? top); [|reflexivity].
  destruct (last_opt (removelast inds)) as [second|]; [|reflexivity].
  destruct (second <? start).
  - rewrite map_app. reflexivity.
  - rewrite <- IH. rewrite map_app. reflexivity.
Qed.
Lemma dedent_shift start ln l c inds :
  dedent_if_necessary start (ln + k) (l + k, c) inds =
  match dedent_if_necessary start ln (l, c) inds with Ok (i, t) => Ok (i, map (shT k) t) | Err e => Err e end.
Proof. apply (dedent_loop_shift _ _ _ _ _ _ []). Qed.

Lemma split_illegal_shift : forall chars i found illegal l c pfx sl sc,
  split_illegal isident chars i found illegal (l + k, c) pfx (sl + k) sc = map (shT k) (split_illegal isident chars i found illegal (l, c) pfx sl sc).
Proof.
  induction chars as [|x rest IH]; intros i found illegal l c pfx sl sc.
  - simpl. destruct found; [reflexivity|]. destruct illegal; reflexivity.
  - cbn [split_illegal]. destruct illegal.
    + destruct (isident [x]); [|apply IH]. cbn [map]. f_equal. apply (IH (i + 1) [x] false sl (sc + i) [] sl sc).
    + destruct (isident (found ++ [x])); [apply IH|]. destruct found as [|y f]; [apply IH|]. cbn [map]. f_equal. apply (IH (i + 1) [x] true sl (sc + i) [] sl sc).
Qed.

Lemma shP_pair l c : shP k (l, c) = (l + k, c).
Proof. reflexivity. Qed.

(* When text was found (str <> []) the text start of the new top node is live whether or not text stays pending. *)
Lemma ffs_shift fs fs' tos tos' line ln pos : Forall2 RFk fs fs' -> RFk tos tos' ->
  RR (fun '(str, p, t1) '(str', p', t1') => str' = str /\ p' = p /\ RFk t1 t1' /\ (str <> [] -> last_start t1' = shP k (last_start t1)))
     (find_fstring_string C fs tos line ln pos) (find_fstring_string C fs' tos' line (ln + k) pos).
Proof.
  intros F [q p pl ls ls' sc E]. unfold find_fstring_string, in_format_spec, in_expr, allow_multiline.
  fields.
  apply RR_opt; [intros [e cs]|repeat split; trivial].
  apply RR_same; [apply (trunc_shift _ _ _ F)|]. intros string0.
  destruct pl as [|y pl]; [|specialize (E ltac:(discriminate)); subst ls']; fields;
    apply RR_if; repeat split; easy.
Qed.

Lemma close_shift : forall stack stack' before before' rest ln col ap, Forall2 RFk stack stack' -> Forall2 RFk before before' ->
  RR (fun o o' => match o, o' with
                  | None, None => True
                  | Some (t, q, rem), Some (t', q', rem') => t' = shT k t /\ q' = q /\ Forall2 RFk rem rem'
                  | _, _ => False end)
     (close_fstring isspace before stack rest ln col ap) (close_fstring isspace before' stack' rest (ln + k) col ap).
Proof.
  intros stack stack' before before' rest ln col ap F. revert before before'.
  induction F as [|n n' t t' H F IH]; intros before before' FB; [exact I|]. pose proof H as H0. destruct H. simpl.
  apply RR_if; [|apply IH, Forall2_app; [exact FB|constructor; [exact H0|constructor]]].
  destruct pl; [|reflexivity].
  apply RR_if_eq; [apply (no_pending_shift _ _ (Forall2_app FB F))| |reflexivity]. split; [reflexivity|split; [reflexivity|exact FB]].
Qed.

Lemma fs_text_shift ln s s' tos tos' line pos : RSk ln s s' -> RFk tos tos' ->
  R4 k ln (fs_text C s tos line pos) (fs_text C s' tos' line pos).
Proof.
  intros R RT. unfold fs_text. apply RR_if_eq; [destruct RT; reflexivity| |now apply R4_ok].
  destruct R as [p i c cs cs' ep ep' nl px px' ap fs fs' mx F Dc De Dp]. unfold upd_f, upd_top.
  fields.
  eapply RR_bind; [apply (ffs_shift _ _ _ _ line ln pos F RT)|].
  intros [[str p1] t1] [[str' p1'] t1'] _ _ (-> & -> & RT1 & LS).
  destruct str as [|x str].
  - apply RR_if; (apply R4_ok; [constructor; trivial; apply F2_set_last; assumption|reflexivity]).
  - apply RR_if_eq; [f_equal; apply (no_pending_shift _ _ (F2_removelast _ _ _ F))| |reflexivity].
    rewrite LS by discriminate. destruct RT1. apply R4_ok; [|reflexivity].
    constructor; trivial. apply F2_set_last; [exact F|]. constructor. easy.
Qed.

Lemma fs_part_shift ln s s' line pos : RSk ln s s' -> R4 k ln (fs_part C isspace s line pos) (fs_part C isspace s' line pos).
Proof.
  intros R. unfold fs_part.
  apply (F2_last RFk); [destruct R; assumption| |now apply R4_ok]. intros tos tos' RT.
  eapply R4_bind; [apply fs_text_shift; eassumption|]. intros s1 s1' t oe p R1. cbv beta iota.
  apply RR_opt; [intros e; now apply R4_ok|].
  destruct R1 as [pa i c cs cs' ep ep' nl px px' ap fs fs' mx F Dc De Dp]. unfold upd_f, upd_addp.
  fields.
  eapply RR_bind; [apply (close_shift fs fs' [] [] _ ln p ap F (Forall2_nil _))|].
  intros [[[tok q] rem]|] [[[tok' q'] rem']|] _ _; try contradiction.
  - intros (-> & -> & FR). apply R4_ok; [constructor; assumption|apply map_app].
  - intros _. now apply R4_ok; [constructor|].
Qed.

Lemma pm_info_shift ln s s' line pos : RSk ln s s' -> pm_info C s line pos = pm_info C s' line pos.
Proof.
  intros [p i c cs cs' ep ep' nl px px' ap fs fs' mx F Dc De Dp]. unfold pm_info. cbn [fstack addp].
  rewrite <- (sll_shift _ _ _ _ _ F). destruct F; reflexivity.
Qed.

Lemma indent_part_shift ln s2 s2' is_pm initial start l sc : RSk ln s2 s2' ->
  R2 k ln (indent_part s2 is_pm initial start (l, sc)) (indent_part s2' is_pm initial start (l + k, sc)).
Proof.
  intros R. unfold indent_part. apply RR_if_eq; [destruct R; reflexivity| |now apply R2_ok].
  destruct R as [p i c cs cs' ep ep' nl px px' ap fs fs' mx F Dc De Dp].
  fields.
  apply RR_if_eq; [f_equal; apply (F2_nil _ _ F)| |now apply R2_ok; [constructor|]].
  apply RR_opt; [intros top|reflexivity].
  destruct (top <? start); cbv beta iota; rewrite dedent_shift; (destruct (dedent_if_necessary _ ln _ _) as [[inds t]|]; [|reflexivity]); (now apply R2_ok; [constructor|]).
Qed.

(* At a leaf both runs return: the states are related field by field (the premises are hypotheses, or hold by
   reflexivity because both runs store the same value) and a new token, if any, differs by its line only. *)
Ltac leaf := apply R3_ok; [constructor; trivial|try apply map_app; reflexivity].

Lemma error_token_shift ln s3 s3' toks line pos l sc : RSk ln s3 s3' ->
  R3 k ln (error_token C s3 toks line pos (l, sc)) (error_token C s3' (map (shT k) toks) line pos (l + k, sc)).
Proof.
  intros [p i c cs cs' ep ep' nl px px' ap fs fs' mx F Dc De Dp]. unfold error_token.
  fields.
  apply RR_opt; [intros [e cs0]|reflexivity]. rewrite <- (F2_nil _ _ F).
  destruct (nl && _ && _); [rewrite dedent_shift; destruct (dedent_if_necessary _ ln _ _) as [[inds t]|]; [|reflexivity]|];
    (apply RR_opt; [intros x|reflexivity]); (apply R3_ok; [constructor; assumption|rewrite !map_app; reflexivity]).
Qed.

Lemma classify_shift ln s3 s3' toks line pfx start epos token has3 initial l sc : RSk ln s3 s3' -> prefix s3' = prefix s3 ->
  R3 k ln (classify C isident s3 toks line pfx start epos token has3 initial (l, sc))
          (classify C isident s3' (map (shT k) toks) line pfx start epos token has3 initial (l + k, sc)).
Proof.
  intros [p i c cs cs' ep ep' nl px px' ap fs fs' mx F Dc De Dp] PX. cbn [prefix] in PX. subst px'.
  unfold classify, upd_f, upd_addp, upd_top.
  fields.
  apply RR_if; [leaf|].
  apply RR_if.
  { rewrite <- (F2_nil _ _ F). eapply R2_bind.
    - apply RR_if; [|now apply R2_ok; [constructor|]].
      apply RR_opt; [intros [e cs0]|now apply R2_ok; [constructor|]].
      cbn [indents lnum]. rewrite dedent_shift. destruct (dedent_if_necessary _ ln _ _) as [[inds t]|]; [|reflexivity]. now apply R2_ok; [constructor|].
    - intros s4 s4' t4 R4s. apply RR_if; (apply R3_ok; [exact R4s|]); rewrite !map_app; [|rewrite split_illegal_shift]; reflexivity. }
  apply RR_if.
  { rewrite <- (existsb_multi_shift _ _ F).
    assert (FS : Forall2 RFk (if existsb (fun f => negb (allow_multiline f)) fs then [] else fs)
                             (if existsb (fun f => negb (allow_multiline f)) fs then [] else fs')) by (destruct (existsb _ fs); [constructor|exact F]).
    rewrite <- (F2_nil _ _ FS). apply RR_if; leaf; exact FS. }
  apply RR_if.
  { apply RR_if_eq; [|leaf..]. apply (F2_last RFk _ _ _ _ _ _ _ F); [intros f f' []|]; reflexivity. }
  apply RR_if.
  { apply RR_opt; [intros r|reflexivity]. apply RR_opt; [intros [e cs0]|]; leaf. }
  apply RR_if.
  { apply RR_if; leaf. }
  apply RR_opt.
  { intros q. leaf. apply Forall2_app; [exact F|]. repeat constructor. easy. }
  apply RR_if; [leaf|].
  apply (F2_last RFk _ _ _ _ _ _ _ F).
  - intros f f' [q pa pl ls ls' sc0 E]. fields.
    assert (U : forall pa sc, Forall2 RFk (set_last fs (mkF q pa pl ls sc)) (set_last fs' (mkF q pa pl ls' sc)))
      by (intros; apply F2_set_last; [exact F|constructor; exact E]).
    apply RR_if; [leaf|].
    apply RR_if; [destruct (_ =? 0)%Z; [|destruct (_ <? _)%Z]; leaf|].
    apply RR_if; leaf.
  - apply RR_if; [leaf|]. apply RR_if; leaf.
Qed.

Lemma body_shift ln s s' line pos : RSk ln s s' -> R3 k ln (body C isident isspace s line pos) (body C isident isspace s' line pos).
Proof.
  intros R. unfold Tok.body. eapply R4_bind; [apply fs_part_shift, R|]. intros s1 s1' t1 oe p R1. cbv beta iota.
  apply RR_opt; [intros e; now apply R3_ok|].
  apply RR_if_eq; [f_equal; destruct R1; apply no_pending_shift; assumption|reflexivity|].
  apply RR_same; [apply (pm_info_shift _ _ _ _ _ R1)|]. intros [[pmi start] initial].
  destruct R1 as [pa i c cs cs' ep ep' nl px px' ap fs fs' mx F Dc De Dp].
  fields.
  destruct pmi as [[[[[pfx a2] epos] token] has3]|].
  - destruct token as [|c0 tk].
    + destruct pfx as [|x pfx']; [reflexivity|]. apply RR_if; [leaf|reflexivity].
    + eapply RR_bind; [apply indent_part_shift; constructor; trivial|].
      intros [s3 t2] [s3' t2'] IPa IPb [R3s <-]. rewrite <- map_app. apply classify_shift; [exact R3s|].
      apply indent_part_blks in IPa, IPb. destruct IPa as (_&_&_&_&_&_&->&_), IPb as (_&_&_&_&_&_&->&_). reflexivity.
  - eapply R2_bind; [apply indent_part_shift; constructor; assumption|].
    intros s3 s3' t2 R3s. rewrite <- map_app. apply error_token_shift, R3s.
Qed.

Lemma scan_shift ln : forall fuel s s' line pos acc, RSk ln s s' ->
  R2 k ln (scan C isident isspace fuel s line pos acc) (scan C isident isspace fuel s' line pos (map (shT k) acc)).
Proof.
  induction fuel as [|f IH]; intros s s' line pos acc R; [reflexivity|]. cbn [Tok.scan].
  apply RR_if_eq; [destruct R; reflexivity| |now apply R2_ok].
  eapply R3_bind; [apply body_shift, R|]. intros s1 s1' t le R1. cbv beta iota. rewrite <- map_app.
  destruct le as [pos'|]; [apply IH, R1|now apply R2_ok].
Qed.

Lemma line_core_shift ln s s' line pos : RSk ln s s' ->
  R2 k ln (line_core C isident isspace s line pos) (line_core C isident isspace s' line pos).
Proof.
  intros [p i c cs cs' ep ep' nl px px' ap fs fs' mx F Dc De Dp]. unfold line_core. fields.
  destruct c as [|cc ct]; [apply (scan_shift ln _ _ _ line pos []); constructor; assumption|].
  rewrite Dc, De, Dp by discriminate. apply RR_opt; [intros r|reflexivity].
  apply RR_opt; [intros [e cs0]|now apply R2_ok; [constructor|]].
  apply (scan_shift ln _ _ _ line e [mkTok STRING _ (fst cs) (snd cs) _]). constructor; easy.
Qed.

Lemma line_step_shift ln s s' line0 first sc : RSk ln s s' ->
  R2 k (ln + 1) (line_step C isident isspace s line0 first sc) (line_step C isident isspace s' line0 first sc).
Proof.
  intros R. rewrite !line_step_core. apply line_core_shift. destruct R. apply RS_at; trivial. apply N.add_shuffle0.
Qed.

Lemma lines_loop_shift : forall lines ln s s' first sc acc, RSk ln s s' ->
  R2 k (ln + N.of_nat (length lines)) (lines_loop C isident isspace s lines first sc acc)
                                      (lines_loop C isident isspace s' lines first sc (map (shT k) acc)).
Proof.
  induction lines as [|l rest IH]; intros ln s s' first sc acc R; cbn [Tok.lines_loop length].
  - rewrite N.add_0_r. now apply R2_ok.
  - rewrite Nat2N.inj_succ, <- N.add_1_l, N.add_assoc.
    eapply R2_bind; [apply line_step_shift, R|]. intros s1 s1' t R1. rewrite <- map_app. apply IH, R1.
Qed.

Lemma finish_shift ln r r' : R2 k ln r r' -> RR (fun t t' => map (shT k) t = t') (finish_lines r) (finish_lines r').
Proof.
  destruct r as [[s out]|], r' as [[s' out']|]; try contradiction; [|exact id].
  intros [[p i c cs cs' ep ep' nl px px' ap fs fs' mx F Dc De Dp] <-]. unfold finish_lines, end_guard, flush.
  fields.
  set (t1 := match c with [] => [] | _ :: _ => [mkTok ERRORTOKEN c (fst cs) (snd cs) px] end).
  set (t1' := match c with [] => [] | _ :: _ => [mkTok ERRORTOKEN c (fst cs') (snd cs') px'] end).
  set (t2 := match last_opt fs with Some _ => _ | None => [] end).
  set (t2' := match last_opt fs' with Some _ => _ | None => [] end).
  assert (T1 : map (shT k) t1 = t1') by (subst t1 t1'; destruct c; [reflexivity|]; rewrite Dc, Dp by discriminate; reflexivity).
  assert (T2 : map (shT k) t2 = t2').
  { apply (F2_last RFk (fun x y => map (shT k) x = y) _ _ _ _ _ _ F); [|reflexivity].
    intros f f' [q pa pl ls ls' sc E]. cbn [prev_lines last_start]. destruct pl; [reflexivity|]. rewrite E by discriminate. reflexivity. }
  destruct T1, T2. apply RR_if_eq; [|unfold RR; rewrite !map_app, map_map; reflexivity|reflexivity].
  f_equal; [apply (no_pending_shift _ _ (F2_removelast _ _ _ F))|].
  apply (F2_last RFk eq _ _ _ _ _ _ F); [intros f f' []|]; reflexivity.
Qed.

Theorem tok_shift : forall lines inds sl sc first,
  1 <= sl ->
  tokenize_lines C isident isspace lines inds (sl + k) sc first =
  match tokenize_lines C isident isspace lines inds sl sc first with Ok toks => Ok (map (shT k) toks) | Err e => Err e end.
Proof.
  intros lines inds sl sc first SL. rewrite !tokenize_lines_finish. apply RR_map, (finish_shift (sl - 1 + N.of_nat (length lines))).
  apply (lines_loop_shift lines _ _ _ first sc []), RS_at; [apply N.add_sub_swap, SL|constructor|easy..].
Qed.
End Shift.
Print Assumptions tok_shift.
