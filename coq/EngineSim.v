From Coq Require Import List NArith ZArith.
Import ListNotations.
Require Import Tok Engine EngineStep.
Open Scope N_scope.

(* C07, first half: whenever the strict parser accepts, the recovering parser takes exactly the
   same steps and returns the identical tree.  The two modes share add_token; they differ only in
   the error branch (strict raises) and in _recovery_tokenize, which hands on every token as long as
   no INDENT was dropped by recovery (_omit_dedent_list = []); steps without recovery do not look
   at that list or at the indentation counter. *)

Section Sim.
Variable G : gram.
Variable TR : list (N * list (label * plan)).

Lemma added_sim t m f p p' : added G TR t m f p p' -> m = false ->
  forall om ic, added G TR t m f (mkP (stack p) om ic) (mkP (stack p') om ic).
Proof.
  induction 1; intros M om1 ic1; try discriminate; cbn [stack] in *;
    [apply added_shift|eapply added_pop|eapply added_newline]; eauto.
Qed.

Lemma add_token_sim : forall f p t p',
  add_token G TR f false p t = POk p' ->
  forall om ic, add_token G TR f true (mkP (stack p) om ic) t = POk (mkP (stack p') om ic).
Proof.
  intros f p t p' H om ic. apply add_token_added in H as (m & R & M). apply add_token_added. exists m.
  split; [exact (added_sim _ _ _ _ _ R (M eq_refl) om ic)|discriminate].
Qed.

Lemma retok_no_omit ic t : exists ic1, retok true [] ic t = Some ic1.
Proof. unfold retok. destruct (ty t); eexists; reflexivity. Qed.

Lemma feed_sim : forall toks p p',
  feed G TR false p toks = POk p' ->
  forall ic, exists ic', feed G TR true (mkP (stack p) [] ic) toks = POk (mkP (stack p') [] ic').
Proof.
  induction toks as [|t toks IH]; intros [s om ic0] p' H ic; [inversion H; exists ic; reflexivity|].
  rewrite feed_cons in H |- *. cbn [retok] in H. cbn [stack].
  destruct (add_token G TR _ false _ t) as [p2|] eqn:A; [|discriminate].
  destruct (retok_no_omit ic t) as (ic1 & ->). apply add_token_sim with (om := []) (ic := ic1) in A. cbn [stack] in A.
  rewrite A. apply (IH _ _ H).
Qed.

Theorem strict_accepts_recover_same : forall start toks t,
  parse G TR false start toks = POk t -> parse G TR true start toks = POk t.
Proof.
  intros start toks t H. unfold parse in *. destruct (assocN start (g_start G)) as [q0|]; [|discriminate].
  destruct (feed G TR false (mkP [mkFr q0 []] [] 0%Z) toks) as [p|e] eqn:F; [|discriminate].
  destruct (feed_sim toks _ p F 0%Z) as (ic' & E). cbn [stack] in E. rewrite E. exact H.
Qed.
End Sim.
Print Assumptions strict_accepts_recover_same.
