From Coq Require Import List NArith Bool.
Import ListNotations.
Require Import Regex Tok Engine LL1.
Open Scope N_scope.

(* Instantiation of the abstract completeness and soundness theorems (LL1.complete, LL1.sound_f) with the
   tables dumped from the running generator: boolean checkers over the finite tables, each proved to establish
   one hypothesis of the theorems.  The FOLLOW table is supplied by the translator and only CHECKED to be
   a post-fixpoint, so it is not trusted. *)

Lemma ttype_eqb_eq a b : ttype_eqb a b = true <-> a = b.
Proof. destruct a, b; split; reflexivity || discriminate. Qed.
Lemma label_eqb_eq a b : label_eqb a b = true <-> a = b.
Proof. destruct a as [x|x], b as [y|y]; simpl; [rewrite ttype_eqb_eq| | |rewrite N.eqb_eq]; split; congruence. Qed.

Lemma find_state_in l q d : find_state l q = Some d -> In d l /\ d_id d = q.
Proof.
  induction l as [|x r IH]; simpl; [discriminate|]. destruct (d_id x =? q) eqn:E.
  - intros [= ->]. split; [left; reflexivity|apply N.eqb_eq; exact E].
  - intros H. destruct (IH H). split; [right|]; assumption.
Qed.
Lemma assocN_in {A} k (l : list (N * A)) v : assocN k l = Some v -> In (k, v) l.
Proof.
  induction l as [|[a x] r IH]; simpl; [discriminate|]. destruct (a =? k) eqn:E; [|right; apply IH; assumption].
  apply N.eqb_eq in E. intros [= ->]. subst. left. reflexivity.
Qed.
Lemma assocN_found {A} k (l : list (N * A)) : In k (map fst l) -> exists v, assocN k l = Some v.
Proof.
  induction l as [|[a x] r IH]; simpl; [intros []|]. destruct (a =? k) eqn:E; [exists x; reflexivity|].
  intros [->|I]; [rewrite N.eqb_refl in E; discriminate|exact (IH I)].
Qed.
Lemma assocL_in {A} k (l : list (label * A)) v : assocL k l = Some v -> In (k, v) l.
Proof.
  induction l as [|[a x] r IH]; simpl; [discriminate|]. destruct (label_eqb a k) eqn:E; [|right; apply IH; assumption].
  apply label_eqb_eq in E. intros [= ->]. subst. left. reflexivity.
Qed.

(* the inner loop of all_chains below, over the answers ac of its recursive calls *)
Section ChainsFrom.
Variable ac : N -> option (list (label * list N)).
Fixpoint chains_from (l : list (sym * N)) : option (list (label * list N)) :=
  match l with
  | [] => Some []
  | (T a, nx) :: t => match chains_from t with Some r => Some ((a, [nx]) :: r) | None => None end
  | (NT C, nx) :: t =>
    match ac C, chains_from t with
    | Some lc, Some r => Some (map (fun '(a, ch) => (a, nx :: ch)) lc ++ r)
    | _, _ => None end
  end.
Definition arc_chains (arc : sym * N) : list (label * list N) :=
  match arc with
  | (T a, nx) => [(a, [nx])]
  | (NT C, nx) => match ac C with Some lc => map (fun '(a, ch) => (a, nx :: ch)) lc | None => [] end
  end.
Lemma chains_from_spec l r : chains_from l = Some r ->
  r = flat_map arc_chains l /\ forall C nx, In (NT C, nx) l -> ac C <> None.
Proof.
  revert r. induction l as [|[[a|C] nx] t IH]; cbn [chains_from]; intros r E.
  - inversion E. split; [reflexivity|intros C nx []].
  - destruct (chains_from t) as [r'|]; [|discriminate]. destruct (IH r' eq_refl) as [-> D]. inversion E.
    split; [reflexivity|]. intros C nx' [X|I]; [discriminate X|exact (D _ _ I)].
  - destruct (ac C) as [lc|] eqn:A; [|discriminate]. destruct (chains_from t) as [r'|]; [|discriminate].
    destruct (IH r' eq_refl) as [-> D]. inversion E. split; [cbn; rewrite A; reflexivity|].
    intros C' nx' [X|I]; [inversion X; subst; rewrite A; discriminate|exact (D _ _ I)].
Qed.
End ChainsFrom.

Section Inst.
Variable G : gram.
Variable TR : list (N * list (label * plan)).
Variable FWT : list (N * list label).            (* rule -> labels that may follow it (candidate, checked) *)

Definition arcT (q : N) (a : label) : option N :=
  match st_of G q with
  | Some d => (fix go (l : list (sym * N)) : option N :=
                 match l with
                 | [] => None
                 | (T a', nx) :: t => if label_eqb a' a then Some nx else go t
                 | _ :: t => go t end) (d_arcs d)
  | None => None end.
Definition arcN (q : N) (B : N) : option N := arc_nt G q B.
Definition startR (B : N) : N := match assocN B (g_start G) with Some q => q | None => 0 end.
Definition plansI (q : N) (a : label) : option (N * list N) :=
  match trans TR q a with Some pl => Some (p_next pl, p_pushes pl) | None => None end.
Definition fw_list (B : N) : list label := match assocN B FWT with Some l => l | None => [] end.
Definition FW (B : N) (t : label) : bool := existsb (fun x => label_eqb x t) (fw_list B).
Definition validR (B : N) : Prop := In B (map fst (g_start G)).
Definition opt_is (o : option N) (x : N) : bool := match o with Some y => y =? x | None => false end.
Lemma opt_is_ok o x : opt_is o x = true -> o = Some x.
Proof. destruct o as [y|]; simpl; [|discriminate]. intros H. apply N.eqb_eq in H. subst. reflexivity. Qed.
Definition arcs_of (q : N) : list (sym * N) := match st_of G q with Some d => d_arcs d | None => [] end.

Lemma st_of_in q d : st_of G q = Some d -> In d (g_states G).
Proof. intros H. apply (find_state_in _ _ _ H). Qed.
Lemma st_of_id q d : st_of G q = Some d -> d_id d = q.
Proof. intros H. apply (find_state_in _ _ _ H). Qed.
Lemma rule_of_st q d : st_of G q = Some d -> rule_of G q = d_rule d.
Proof. unfold rule_of. intros ->. reflexivity. Qed.
Lemma final_st q d : st_of G q = Some d -> final G q = d_final d.
Proof. unfold final. intros ->. reflexivity. Qed.
Lemma arcs_of_st q d : st_of G q = Some d -> arcs_of q = d_arcs d.
Proof. unfold arcs_of. intros ->. reflexivity. Qed.

Lemma arcT_in q a q' : arcT q a = Some q' -> In (T a, q') (arcs_of q).
Proof.
  unfold arcT, arcs_of. destruct (st_of G q) as [d|]; [|discriminate].
  induction (d_arcs d) as [|[[a'|B] nx] r IH]; [discriminate| |right; apply IH; assumption].
  destruct (label_eqb a' a) eqn:E; [|right; apply IH; assumption]. apply label_eqb_eq in E. intros [= ->]. subst. left. reflexivity.
Qed.
Lemma arcN_in q B q' : arcN q B = Some q' -> In (NT B, q') (arcs_of q).
Proof.
  unfold arcN, arc_nt, arcs_of. destruct (st_of G q) as [d|]; [|discriminate].
  induction (d_arcs d) as [|[[a|B'] nx] r IH]; [discriminate|right; apply IH; assumption|].
  destruct (B' =? B) eqn:E; [|right; apply IH; assumption]. apply N.eqb_eq in E. intros [= ->]. subst. left. reflexivity.
Qed.

Lemma arcs_forall (P : dstate -> sym * N -> bool) : forallb (fun d => forallb (P d) (d_arcs d)) (g_states G) = true ->
  forall q arc, In arc (arcs_of q) -> exists d, st_of G q = Some d /\ P d arc = true.
Proof.
  intros H q arc I. unfold arcs_of in I. destruct (st_of G q) as [d|] eqn:S; [|destruct I]. exists d. split; [reflexivity|].
  rewrite forallb_forall in H. specialize (H d (st_of_in q d S)). rewrite forallb_forall in H. exact (H arc I).
Qed.

Lemma plansI_some q a pl : trans TR q a = Some pl -> plansI q a = Some (p_next pl, p_pushes pl).
Proof. unfold plansI. intros ->. reflexivity. Qed.
Lemma plansI_in q a q' ch : plansI q a = Some (q', ch) ->
  exists tr pl, assocN q TR = Some tr /\ In (a, pl) tr /\ p_next pl = q' /\ p_pushes pl = ch.
Proof.
  unfold plansI, trans. destruct (assocN q TR) as [tr|]; [|discriminate]. destruct (assocL a tr) as [pl|] eqn:A; [|discriminate].
  intros [= <- <-]. exists tr, pl. split; [reflexivity|split; [exact (assocL_in _ _ _ A)|split; reflexivity]].
Qed.

Lemma validR_in B : validR B -> exists q, In (B, q) (g_start G).
Proof. intros V. apply in_map_iff in V as ([B' q] & E & I). simpl in E. subst B'. exists q. exact I. Qed.
Lemma validb_ok B : existsb (N.eqb B) (map fst (g_start G)) = true -> validR B.
Proof. intros H. apply existsb_exists in H as (x & I & E). apply N.eqb_eq in E. subst. exact I. Qed.

Definition arcs_in_rule_ok : bool :=
  forallb (fun d => forallb (fun '(_, nx) => rule_of G nx =? d_rule d) (d_arcs d)) (g_states G).
Definition starts_ok : bool := forallb (fun '(B, _) => rule_of G (startR B) =? B) (g_start G).

Lemma rule_arc_ok : arcs_in_rule_ok = true -> forall q s nx, In (s, nx) (arcs_of q) -> rule_of G nx = rule_of G q.
Proof. intros H q s nx I. destruct (arcs_forall _ H q _ I) as (d & S & K). rewrite (rule_of_st q d S). apply N.eqb_eq. exact K. Qed.
Lemma rule_arcT_ok : arcs_in_rule_ok = true -> forall q a q', arcT q a = Some q' -> rule_of G q' = rule_of G q.
Proof. intros H q a q' A. exact (rule_arc_ok H q _ _ (arcT_in _ _ _ A)). Qed.
Lemma rule_arcN_ok : arcs_in_rule_ok = true -> forall q B q', arcN q B = Some q' -> rule_of G q' = rule_of G q.
Proof. intros H q B q' A. exact (rule_arc_ok H q _ _ (arcN_in _ _ _ A)). Qed.
Lemma rule_start_ok : starts_ok = true -> forall B, validR B -> rule_of G (startR B) = B.
Proof.
  intros H B V. destruct (validR_in B V) as (q & I). unfold starts_ok in H. rewrite forallb_forall in H.
  apply N.eqb_eq. exact (H _ I).
Qed.

(* That the plan table contains every first chain implies LL(1) uniqueness: plans is a function.  In all_chains None
   means out of fuel.  A start state that is not in the table has no arcs (arcT and arcN are None there), so its rule
   has no first chains: Some [] is the exact answer. *)
Fixpoint all_chains (fuel : nat) (B : N) : option (list (label * list N)) :=
  match fuel with
  | O => None
  | S f =>
    match st_of G (startR B) with
    | None => Some []
    | Some d =>
      (fix go (l : list (sym * N)) : option (list (label * list N)) :=
         match l with
         | [] => Some []
         | (T a, nx) :: t => match go t with Some r => Some ((a, [nx]) :: r) | None => None end
         | (NT C, nx) :: t =>
           match all_chains f C, go t with
           | Some lc, Some r => Some (map (fun '(a, ch) => (a, nx :: ch)) lc ++ r)
           | _, _ => None end
         end) (d_arcs d)
    end
  end.

Lemma all_chains_S f B : all_chains (S f) B = chains_from (all_chains f) (arcs_of (startR B)).
Proof. cbn [all_chains]. unfold arcs_of. destruct (st_of G (startR B)); reflexivity. Qed.

Lemma all_chains_complete : forall fuel B l, all_chains fuel B = Some l ->
  forall a ch, first_chain N label N arcT arcN startR B a ch -> In (a, ch) l.
Proof.
  induction fuel as [|f IH]; intros B l H a ch FC; [discriminate|]. rewrite all_chains_S in H.
  apply chains_from_spec in H as [-> D]. apply in_flat_map.
  inversion FC as [B0 a0 s AT|B0 C a0 s ch' AN FC']; subst.
  - exists (T a, s). split; [exact (arcT_in _ _ _ AT)|left; reflexivity].
  - pose proof (arcN_in _ _ _ AN) as I. exists (NT C, s). split; [exact I|]. cbn [arc_chains].
    destruct (all_chains f C) as [lc|] eqn:AC; [|contradiction (D C s I AC)].
    apply in_map_iff. exists (a, ch'). split; [reflexivity|exact (IH C lc AC a ch' FC')].
Qed.

Definition list_N_eqb (a b : list N) : bool :=
  (fix go (a b : list N) : bool := match a, b with [] , [] => true | x :: a, y :: b => (x =? y) && go a b | _, _ => false end) a b.
Lemma list_N_eqb_eq a b : list_N_eqb a b = true -> a = b.
Proof.
  unfold list_N_eqb. revert b. induction a as [|x a IH]; destruct b as [|y b]; intros H; try discriminate; [reflexivity|].
  apply andb_true_iff in H as [H1 H2]. apply N.eqb_eq in H1. subst. f_equal. apply IH. exact H2.
Qed.

Definition plan_is (q : N) (a : label) (q' : N) (ch : list N) : bool :=
  match plansI q a with Some (n, c) => (n =? q') && list_N_eqb c ch | None => false end.
Lemma plan_is_ok q a q' ch : plan_is q a q' ch = true -> plansI q a = Some (q', ch).
Proof.
  unfold plan_is. destruct (plansI q a) as [[n c]|]; [|discriminate]. intros H.
  apply andb_true_iff in H as [H1 H2]. apply N.eqb_eq in H1. apply list_N_eqb_eq in H2. subst. reflexivity.
Qed.

Definition plans_complete_ok (fuel : nat) : bool :=
  forallb (fun d =>
    forallb (fun '(s, nx) =>
      match s with
      | T a => plan_is (d_id d) a nx []
      | NT B => match all_chains fuel B with
                | Some l => forallb (fun '(a, ch) => plan_is (d_id d) a nx ch) l
                | None => false end
      end) (d_arcs d)) (g_states G).

Lemma plans_complete_sound fuel : plans_complete_ok fuel = true ->
  forall q a q' ch,
    (ch = [] /\ arcT q a = Some q') \/ (exists B, arcN q B = Some q' /\ first_chain N label N arcT arcN startR B a ch) ->
    plansI q a = Some (q', ch).
Proof.
  intros H q a q' ch [[-> A]|(B & A & FC)]; apply plan_is_ok.
  - destruct (arcs_forall _ H q _ (arcT_in _ _ _ A)) as (d & S & K). rewrite <- (st_of_id q d S). exact K.
  - destruct (arcs_forall _ H q _ (arcN_in _ _ _ A)) as (d & S & K). cbv beta iota in K.
    destruct (all_chains fuel B) as [l|] eqn:AC; [|discriminate]. rewrite forallb_forall in K.
    rewrite <- (st_of_id q d S). exact (K _ (all_chains_complete fuel B l AC a ch FC)).
Qed.

(* FW is a post-fixpoint of FOLLOW (fw1_ok, fw2_ok) and there is no FIRST/FOLLOW conflict (noconf_ok) *)
Definition plan_labels (q : N) : list label := match assocN q TR with Some tr => map fst tr | None => [] end.
Lemma plans_label_in q t : plansI q t <> None -> In t (plan_labels q).
Proof.
  intros H. destruct (plansI q t) as [[q' ch]|] eqn:P; [|contradiction H; reflexivity].
  destruct (plansI_in _ _ _ _ P) as (tr & pl & A & I & _). unfold plan_labels. rewrite A. exact (in_map fst _ _ I).
Qed.
Lemma FW_in B t : FW B t = true -> In t (fw_list B).
Proof. intros H. apply existsb_exists in H as (x & I & E). apply label_eqb_eq in E. subst. exact I. Qed.

Definition fw1_ok : bool :=
  forallb (fun d => forallb (fun '(s, nx) => match s with
                                            | NT B => forallb (fun t => FW B t) (plan_labels nx)
                                            | T _ => true end) (d_arcs d)) (g_states G).
Definition fw2_ok : bool :=
  forallb (fun d => forallb (fun '(s, nx) => match s with
                                            | NT B => if final G nx then forallb (fun t => FW B t) (fw_list (d_rule d)) else true
                                            | T _ => true end) (d_arcs d)) (g_states G).
Definition noconf_ok : bool :=
  forallb (fun d => if d_final d then forallb (fun t => match plansI (d_id d) t with None => true | Some _ => false end) (fw_list (d_rule d)) else true)
          (g_states G).

Lemma fw1_sound : fw1_ok = true -> forall q B q' t, arcN q B = Some q' -> plansI q' t <> None -> FW B t = true.
Proof.
  intros H q B q' t A P. destruct (arcs_forall _ H q _ (arcN_in _ _ _ A)) as (d & _ & K). cbv beta iota in K.
  rewrite forallb_forall in K. exact (K t (plans_label_in _ _ P)).
Qed.
Lemma fw2_sound : fw2_ok = true -> forall q B q' t, arcN q B = Some q' -> final G q' = true -> FW (rule_of G q) t = true -> FW B t = true.
Proof.
  intros H q B q' t A F W. destruct (arcs_forall _ H q _ (arcN_in _ _ _ A)) as (d & S & K). cbv beta iota in K.
  rewrite F, forallb_forall in K. apply K. apply FW_in. rewrite <- (rule_of_st q d S). exact W.
Qed.
Lemma noconf_sound : noconf_ok = true -> forall q t, final G q = true -> FW (rule_of G q) t = true -> plansI q t = None.
Proof.
  intros H q t F W. unfold final in F. destruct (st_of G q) as [d|] eqn:S; [|discriminate].
  unfold noconf_ok in H. rewrite forallb_forall in H. specialize (H d (st_of_in q d S)). rewrite F, forallb_forall in H.
  rewrite (rule_of_st q d S) in W. apply FW_in in W. specialize (H t W). rewrite (st_of_id q d S) in H.
  destruct (plansI q t); [discriminate|reflexivity].
Qed.

(* wf as a test: the C06_nonvacuous_<v> examples of gen/LL1_<v>.v evaluate it on a derivation built outside Coq *)
Section Wfb.
Variable T1 : Type.
Fixpoint wfb (d : dtree T1 label N) : bool :=
  match d with
  | DLeaf _ _ _ _ _ => true
  | DNode _ _ _ B kb =>
    existsb (N.eqb B) (map fst (g_start G)) &&
    match kb with [] => false | _ => true end &&
    match run T1 N label N arcT arcN (startR B) kb with Some qf => final G qf | None => false end &&
    (fix all (l : list (dtree T1 label N)) : bool := match l with [] => true | k :: r => wfb k && all r end) kb
  end.
Lemma wfb_sound : forall d, wfb d = true -> wf T1 N label N arcT arcN startR (final G) validR d.
Proof.
  fix IH 1. intros d. destruct d as [a x|B kb]; [intros _; exact I|]. intros H. cbn [wfb] in H.
  apply andb_true_iff in H as [H H4]. apply andb_true_iff in H as [H H3]. apply andb_true_iff in H as [H1 H2].
  apply wf_node. split; [exact (validb_ok B H1)|split; [destruct kb; discriminate|split]].
  - destruct (run T1 N label N arcT arcN (startR B) kb) as [qf|]; [|discriminate]. exists qf. split; [reflexivity|exact H3].
  - clear H1 H2 H3. induction kb as [|k r IHr]; [exact I|]. apply andb_true_iff in H4 as [Hk Hr]. split; [apply IH; exact Hk|apply IHr; exact Hr].
Qed.
End Wfb.

Definition tables_ok (fuel : nat) : bool :=
  arcs_in_rule_ok && starts_ok && plans_complete_ok fuel && fw1_ok && fw2_ok && noconf_ok.

(* the hypotheses of LL1.complete; the boolean checker above is one way to establish them *)
Record complete_tables : Prop := {
  ct_start : forall B, validR B -> rule_of G (startR B) = B;
  ct_arcT : forall q a q', arcT q a = Some q' -> rule_of G q' = rule_of G q;
  ct_arcN : forall q B q', arcN q B = Some q' -> rule_of G q' = rule_of G q;
  ct_plans : forall q a q' ch,
    (ch = [] /\ arcT q a = Some q') \/ (exists B, arcN q B = Some q' /\ first_chain N label N arcT arcN startR B a ch) ->
    plansI q a = Some (q', ch);
  ct_fw1 : forall q B q' t, arcN q B = Some q' -> plansI q' t <> None -> FW B t = true;
  ct_fw2 : forall q B q' t, arcN q B = Some q' -> final G q' = true -> FW (rule_of G q) t = true -> FW B t = true;
  ct_noconf : forall q t, final G q = true -> FW (rule_of G q) t = true -> plansI q t = None }.
Lemma tables_ok_complete fuel : tables_ok fuel = true -> complete_tables.
Proof.
  unfold tables_ok. intros H. repeat (apply andb_true_iff in H as [H ?]).
  split; [apply rule_start_ok|apply rule_arcT_ok|apply rule_arcN_ok|apply (plans_complete_sound fuel)|apply fw1_sound|apply fw2_sound|apply noconf_sound]; assumption.
Qed.

Variable T0 : Type.
Variable mk_node : N -> list T0 -> T0.

Theorem complete_tables_pass : complete_tables ->
  forall F kb t,
    wf T0 N label N arcT arcN startR (final G) validR (DNode T0 label N F kb) -> FW F t = true ->
    exists qf, final G qf = true /\ rule_of G qf = F /\
      passes T0 N label N mk_node (final G) (rule_of G) plansI
             (yield T0 label N (DNode T0 label N F kb)) [(startR F, [])] t [(qf, map (collapse T0 label N mk_node) kb)].
Proof.
  intros C F kb t W HF.
  eapply (complete T0 N label N (LType ENDMARKER) mk_node arcT arcN startR (final G) (rule_of G) plansI FW
            (ct_plans C) validR (ct_start C) (ct_arcT C) (ct_arcN C) (ct_fw1 C) (ct_fw2 C) (ct_noconf C)); eassumption.
Qed.
Theorem tables_complete : forall fuel, tables_ok fuel = true ->
  forall F kb t,
    wf T0 N label N arcT arcN startR (final G) validR (DNode T0 label N F kb) -> FW F t = true ->
    exists qf, final G qf = true /\ rule_of G qf = F /\
      passes T0 N label N mk_node (final G) (rule_of G) plansI
             (yield T0 label N (DNode T0 label N F kb)) [(startR F, [])] t [(qf, map (collapse T0 label N mk_node) kb)].
Proof. intros fuel H. exact (complete_tables_pass (tables_ok_complete fuel H)). Qed.

Fixpoint chain_ok (B : N) (a : label) (ch : list N) : bool :=
  match ch with
  | [] => false
  | s :: ch' =>
    match ch' with
    | [] => opt_is (arcT (startR B) a) s
    | _ :: _ => existsb (fun '(sy, nx) => match sy with
                                          | NT C => (nx =? s) && opt_is (arcN (startR B) C) s && chain_ok C a ch'
                                          | T _ => false end) (arcs_of (startR B))
    end
  end.
Lemma nt_step_ok q s a ch :
  existsb (fun '(sy, nx) => match sy with
                            | NT C => (nx =? s) && opt_is (arcN q C) s && chain_ok C a ch
                            | T _ => false end) (arcs_of q) = true ->
  exists C, arcN q C = Some s /\ chain_ok C a ch = true.
Proof.
  intros H. apply existsb_exists in H as ([[l|C] nx] & _ & H); [discriminate|].
  apply andb_true_iff in H as [H H3]. apply andb_true_iff in H as [_ H2]. exists C. split; [apply opt_is_ok; exact H2|exact H3].
Qed.
Lemma chain_ok_sound : forall ch B a, chain_ok B a ch = true -> first_chain N label N arcT arcN startR B a ch.
Proof.
  induction ch as [|s ch' IH]; intros B a H; [discriminate|]. cbn [chain_ok] in H. destruct ch' as [|s2 ch2].
  - apply fc_t. apply opt_is_ok. exact H.
  - destruct (nt_step_ok _ _ _ _ H) as (C & A & K). exact (fc_n _ _ _ _ _ _ _ C _ _ _ A (IH _ _ K)).
Qed.

Definition plan_sound_ok (q : N) (a : label) (pl : plan) : bool :=
  (match p_pushes pl with [] => true | _ => false end && opt_is (arcT q a) (p_next pl)) ||
  existsb (fun '(sy, nx) => match sy with
                            | NT B => (nx =? p_next pl) && opt_is (arcN q B) (p_next pl) && chain_ok B a (p_pushes pl)
                            | T _ => false end) (arcs_of q).
Definition plans_sound_ok : bool :=
  forallb (fun '(q, tr) => forallb (fun '(a, pl) => plan_sound_ok q a pl) tr) TR.

Lemma plans_sound_sound : plans_sound_ok = true -> forall q a q' ch, plansI q a = Some (q', ch) ->
  (ch = [] /\ arcT q a = Some q') \/ (exists B, arcN q B = Some q' /\ first_chain N label N arcT arcN startR B a ch).
Proof.
  intros H q a q' ch P. destruct (plansI_in _ _ _ _ P) as (tr & pl & A & I & <- & <-).
  unfold plans_sound_ok in H. rewrite forallb_forall in H. specialize (H _ (assocN_in _ _ _ A)). cbv beta iota in H.
  rewrite forallb_forall in H. specialize (H _ I). apply orb_true_iff in H as [H|H].
  - apply andb_true_iff in H as [H1 H2]. left. split; [destruct (p_pushes pl); [reflexivity|discriminate]|apply opt_is_ok; exact H2].
  - destruct (nt_step_ok _ _ _ _ H) as (B & AN & K). right. exists B. split; [exact AN|exact (chain_ok_sound _ _ _ K)].
Qed.

Definition arcN_valid_ok : bool :=
  forallb (fun d => forallb (fun '(sy, _) => match sy with NT B => existsb (N.eqb B) (map fst (g_start G)) | T _ => true end) (d_arcs d)) (g_states G).
Lemma arcN_valid_sound : arcN_valid_ok = true -> forall q B q', arcN q B = Some q' -> validR B.
Proof. intros H q B q' A. destruct (arcs_forall _ H q _ (arcN_in _ _ _ A)) as (d & _ & K). exact (validb_ok B K). Qed.

Definition tables_sound_ok : bool := arcs_in_rule_ok && starts_ok && plans_sound_ok && arcN_valid_ok.

(* the hypotheses of LL1.sound_f; the boolean checker above is one way to establish them *)
Record sound_tables : Prop := {
  st_start : forall B, validR B -> rule_of G (startR B) = B;
  st_arcT : forall q a q', arcT q a = Some q' -> rule_of G q' = rule_of G q;
  st_arcN : forall q B q', arcN q B = Some q' -> rule_of G q' = rule_of G q;
  st_plans : forall q a q' ch, plansI q a = Some (q', ch) ->
    (ch = [] /\ arcT q a = Some q') \/ (exists B, arcN q B = Some q' /\ first_chain N label N arcT arcN startR B a ch);
  st_valid : forall q B q', arcN q B = Some q' -> validR B }.
Lemma tables_sound_ok_sound : tables_sound_ok = true -> sound_tables.
Proof.
  unfold tables_sound_ok. intros H. repeat (apply andb_true_iff in H as [H ?]).
  split; [apply rule_start_ok|apply rule_arcT_ok|apply rule_arcN_ok|apply plans_sound_sound|apply arcN_valid_sound]; assumption.
Qed.

Theorem sound_tables_derive : sound_tables ->
  forall S0 w fr qf ns, validR S0 ->
    LL1.feed T0 N label N mk_node (final G) (rule_of G) plansI w [(startR S0, [])] fr -> popsf T0 N N mk_node (final G) (rule_of G) fr [(qf, ns)] ->
    final G qf = true -> w <> [] ->
    exists kb, wf T0 N label N arcT arcN startR (final G) validR (DNode T0 label N S0 kb) /\
               yield T0 label N (DNode T0 label N S0 kb) = w /\ ns = map (collapse T0 label N mk_node) kb /\ rule_of G qf = S0.
Proof.
  intros C S0 w fr qf ns V FD P F NE.
  eapply (sound_f T0 N label N mk_node arcT arcN startR (final G) (rule_of G) plansI validR (st_start C) (st_arcT C) (st_arcN C)
            (st_plans C) (st_valid C)); eassumption.
Qed.
Theorem tables_sound : tables_sound_ok = true ->
  forall S0 w fr qf ns, validR S0 ->
    LL1.feed T0 N label N mk_node (final G) (rule_of G) plansI w [(startR S0, [])] fr -> popsf T0 N N mk_node (final G) (rule_of G) fr [(qf, ns)] ->
    final G qf = true -> w <> [] ->
    exists kb, wf T0 N label N arcT arcN startR (final G) validR (DNode T0 label N S0 kb) /\
               yield T0 label N (DNode T0 label N S0 kb) = w /\ ns = map (collapse T0 label N mk_node) kb /\ rule_of G qf = S0.
Proof. intros H. exact (sound_tables_derive (tables_sound_ok_sound H)). Qed.
End Inst.
Print Assumptions tables_complete.
Print Assumptions tables_sound.
