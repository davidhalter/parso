From Coq Require Import List NArith ZArith Relations.
Import ListNotations.
Require Import Tok Engine LL1 LL1Inst LL1Engine EngineStep.
Open Scope N_scope.

(* C05 on the engine model, for inputs the strict parser accepts without the missing-newline repair:
   the tree is the conversion of the collapsed form of a derivation over the rule automata whose yield is exactly
   the token word - i.e. every node is a complete instance of its rule (its children, before single-child collapse,
   drive the rule's automaton from its start state to a final state).

   add_token_nr is Engine.add_token without the error branch (no repair, no recovery): if it succeeds, so does the
   strict add_token with the same result (nr_strict), so parse_nr = POk t implies parse false = POk t. *)

Section Sound.
Variable G : gram.
Variable TR : list (N * list (label * plan)).

Notation mkn := (mk_node G).
Notation popsf' := (popsf tree N N mkn (final G) (rule_of G)).
Notation feed' := (LL1.feed tree N label N mkn (final G) (rule_of G) (plansI TR)).
Notation step' := (LL1.step tree N label N mkn (final G) (rule_of G) (plansI TR)).

Fixpoint add_token_nr (fuel : nat) (s : list Engine.frame) (t : Token) : pres (list Engine.frame) :=
  match fuel with
  | O => PErr PFuel
  | S f =>
    match s with
    | [] => PErr TooMuchInput
    | tos :: rest =>
      match trans TR (f_dfa tos) (token_label G t) with
      | Some pl =>
        match fold_left (fun st q => mkFr q [] :: st) (p_pushes pl) (mkFr (p_next pl) (f_nodes tos) :: rest) with
        | top :: r => POk (mkFr (f_dfa top) (f_nodes top ++ [convert_leaf G t]) :: r)
        | [] => PErr PIndex
        end
      | None =>
        if final G (f_dfa tos) then
          match pop G s with POk s' => add_token_nr f s' t | PErr e => PErr e end
        else PErr (SyntaxErr t)
      end
    end
  end.
Fixpoint feed_nr (s : list Engine.frame) (toks : list Token) : pres (list Engine.frame) :=
  match toks with
  | [] => POk s
  | t :: rest => match add_token_nr (S (S (2 * length s))) s t with POk s' => feed_nr s' rest | PErr e => PErr e end
  end.
Definition parse_nr (start_rule : N) (toks : list Token) : pres tree :=
  match assocN start_rule (g_start G) with
  | None => PErr PIndex
  | Some q0 => match feed_nr [mkFr q0 []] toks with PErr e => PErr e | POk s => finish G (S (length s)) s end
  end.

Lemma nr_strict : forall f s t s', add_token_nr f s t = POk s' ->
  forall om ic, add_token G TR f false (mkP s om ic) t = POk (mkP s' om ic).
Proof.
  induction f as [|f IH]; intros [|tos rest] t s' H om ic; try discriminate. cbn [add_token_nr] in H. rewrite add_token_eq.
  destruct (trans TR (f_dfa tos) (token_label G t)) as [pl|].
  - unfold planned, pushes, goto. destruct (fold_left _ _ _) as [|top r]; [discriminate|]. injection H as <-. reflexivity.
  - destruct (final G (f_dfa tos)); [|discriminate].
    destruct (pop G (tos :: rest)) as [s1|]; [|discriminate]. apply IH. exact H.
Qed.
Lemma feed_nr_strict : forall toks s s', feed_nr s toks = POk s' ->
  forall om ic, Engine.feed G TR false (mkP s om ic) toks = POk (mkP s' om ic).
Proof.
  induction toks as [|t toks IH]; intros s s' H om ic; cbn [feed_nr] in H; [inversion H; reflexivity|]. rewrite feed_cons. cbn [retok].
  destruct (add_token_nr (S (S (2 * length s))) s t) as [s1|] eqn:A; [|discriminate].
  rewrite (nr_strict _ _ _ _ A om ic). apply IH. exact H.
Qed.
Theorem parse_nr_strict : forall start toks t, parse_nr start toks = POk t -> parse G TR false start toks = POk t.
Proof.
  intros start toks t H. unfold parse_nr in H. unfold parse. destruct (assocN start (g_start G)) as [q0|]; [|discriminate].
  destruct (feed_nr [mkFr q0 []] toks) as [s|] eqn:F; [|discriminate].
  rewrite (feed_nr_strict _ _ _ F [] 0%Z). exact H.
Qed.

Lemma nr_abs : forall f st t s', add_token_nr f (st_of_a st) t = POk s' ->
  exists st', s' = st_of_a st' /\ step' (token_label G t, leaf_of G t) st st'.
Proof.
  induction f as [|f IH]; intros [|[q ns] rest] t s' H; try discriminate.
  cbn [add_token_nr map fr_of fst snd f_dfa f_nodes] in H.
  destruct (trans TR q (token_label G t)) as [pl|] eqn:TRS.
  - exists (push tree N (p_pushes pl) (leaf_of G t) ((p_next pl, ns) :: rest)). split.
    + rewrite fold_push. cbn [map fr_of fst snd]. unfold pushes.
      destruct (fold_left _ _ _) as [|top r]; [discriminate|]. injection H as <-. reflexivity.
    + econstructor; [apply rt1n_refl|]. cbn [shift]. rewrite (plansI_some TR _ _ _ TRS). reflexivity.
  - destruct (final G q) eqn:FQ; [|discriminate]. destruct rest as [|[q2 ns2] rest]; [discriminate|].
    cbn [map] in H. unfold fr_of at 1 2 in H. cbn [fst snd] in H. destruct (pop_refines G q ns q2 ns2 (st_of_a rest)) as [E|(e & _ & E)]; rewrite E in H; [|discriminate].
    apply (IH ((q2, ns2 ++ [close tree N N mkn (rule_of G) q ns]) :: rest)) in H as (st' & -> & STP).
    exists st'. split; [reflexivity|]. inversion STP as [a x s0 sA sB PA SH]; subst.
    econstructor; [|exact SH]. econstructor; [|exact PA]. constructor; [apply plansI_trans; exact TRS|exact FQ].
Qed.

Lemma feed_nr_abs : forall toks st s', feed_nr (st_of_a st) toks = POk s' ->
  exists st', s' = st_of_a st' /\ feed' (word_of G toks) st st'.
Proof.
  induction toks as [|t toks IH]; intros st s' H; cbn [feed_nr] in H.
  - injection H as <-. exists st. split; [reflexivity|constructor].
  - destruct (add_token_nr _ _ t) as [s1|] eqn:A; [|discriminate].
    apply nr_abs in A as (st1 & -> & STP). apply IH in H as (st' & -> & FD).
    exists st'. split; [reflexivity|]. econstructor; eassumption.
Qed.

Lemma finish_abs : forall fuel st t, finish G fuel (st_of_a st) = POk t ->
  exists qf ns, popsf' st [(qf, ns)] /\ final G qf = true /\ convert_node G (rule_of G qf) ns = POk t.
Proof.
  induction fuel as [|f IH]; intros [|[q ns] rest] t H; try discriminate. cbn [finish map fr_of fst snd f_dfa f_nodes] in H.
  destruct (final G q) eqn:FQ; [|discriminate]. cbn [negb] in H.
  destruct rest as [|[q2 ns2] rest].
  - exists q, ns. split; [apply rt1n_refl|split; [exact FQ|exact H]].
  - cbn [map] in H. unfold fr_of at 1 2 in H. cbn [fst snd] in H. destruct (pop_refines G q ns q2 ns2 (st_of_a rest)) as [E|(e & _ & E)]; rewrite E in H; [|discriminate].
    apply (IH ((q2, ns2 ++ [close tree N N mkn (rule_of G) q ns]) :: rest)) in H as (qf & nsf & PP & F2 & CV).
    exists qf, nsf. split; [|split; assumption]. econstructor; [|exact PP]. constructor. exact FQ.
Qed.

Definition derivation := dtree tree label N.

Theorem engine_sound_gen : sound_tables G TR ->
  forall S0 toks t, toks <> [] -> parse_nr S0 toks = POk t ->
  exists kb : list derivation,
    wf tree N label N (arcT G) (arcN G) (startR G) (final G) (validR G) (DNode tree label N S0 kb) /\
    yield tree label N (DNode tree label N S0 kb) = word_of G toks /\
    convert_node G S0 (map (collapse tree label N mkn) kb) = POk t /\
    parse G TR false S0 toks = POk t.
Proof.
  intros OK S0 toks t NE H. pose proof (parse_nr_strict _ _ _ H) as PS. unfold parse_nr in H.
  destruct (assocN S0 (g_start G)) as [q0|] eqn:A; [|discriminate]. destruct (start_of G _ _ A) as [V <-].
  destruct (feed_nr _ toks) as [s|] eqn:F; [|discriminate].
  apply (feed_nr_abs toks [(startR G S0, [])]) in F as (st' & -> & F). rewrite map_length in H.
  apply finish_abs in H as (qf & ns & PP & FQ & CV).
  destruct (sound_tables_derive G TR tree mkn OK S0 _ _ qf ns V F PP FQ) as (kb & W & Y & E & RQ).
  { destruct toks; [contradiction|discriminate]. }
  exists kb. split; [exact W|split; [exact Y|split; [|exact PS]]]. rewrite <- E, <- RQ. exact CV.
Qed.

Theorem engine_sound : tables_sound_ok G TR = true ->
  forall S0 toks t, toks <> [] -> parse_nr S0 toks = POk t ->
  exists kb : list derivation,
    wf tree N label N (arcT G) (arcN G) (startR G) (final G) (validR G) (DNode tree label N S0 kb) /\
    yield tree label N (DNode tree label N S0 kb) = word_of G toks /\
    convert_node G S0 (map (collapse tree label N mkn) kb) = POk t /\
    parse G TR false S0 toks = POk t.
Proof. intros OK. exact (engine_sound_gen (tables_sound_ok_sound G TR OK)). Qed.
End Sound.
Print Assumptions engine_sound.
